(* AssocFacts.v: the association lists and sets of Model/Base.v (sorted by key): predicates that
   hold of every binding, lookup and membership after an insertion or a removal. *)
From Coq Require Import List NArith Bool Lia.
From RaftV Require Import Base.
Import ListNotations.
Open Scope N_scope.

Lemma alookup_in {A} (l : list (N * A)) k v : alookup l k = Some v -> In (k, v) l.
Proof.
  induction l as [|[k' v'] l IH]; cbn; [discriminate|].
  destruct (N.eqb k k') eqn:E.
  - intros H. inversion H; subst. apply N.eqb_eq in E. subst. left. reflexivity.
  - intros H. right. apply IH. exact H.
Qed.

Lemma forall_ainsert {A} (P : N * A -> Prop) l k v : Forall P l -> P (k, v) -> Forall P (ainsert l k v).
Proof.
  induction l as [|[k' v'] l IH]; cbn; intros F Pk.
  - constructor; [exact Pk|constructor].
  - inversion F as [|? ? F1 F2]; subst.
    destruct (N.eqb k k'); [constructor; assumption|].
    destruct (N.ltb k k'); [constructor; [exact Pk|constructor; assumption]|].
    constructor; [exact F1|apply IH; assumption].
Qed.

Lemma forall_aremove {A} (P : N * A -> Prop) l k : Forall P l -> Forall P (aremove l k).
Proof.
  induction l as [|[k' v'] l IH]; cbn; intros F; [constructor|].
  inversion F as [|? ? F1 F2]; subst. destruct (N.eqb k k'); [apply IH; exact F2|].
  constructor; [exact F1|apply IH; exact F2].
Qed.

Lemma nlen_zero {A} (l : list A) : N.eqb (nlen l) 0 = true <-> l = [].
Proof.
  unfold nlen. destruct l; [cbn; tauto|]. split; [|discriminate]. intros H. apply N.eqb_eq in H. cbn [length] in H. lia.
Qed.

Lemma alookup_ainsert {A} (m : list (N * A)) k v k' :
  alookup (ainsert m k v) k' = if N.eqb k' k then Some v else alookup m k'.
Proof.
  induction m as [|[a b] m IH]; cbn.
  - destruct (N.eqb k' k); reflexivity.
  - destruct (N.eqb_spec k a) as [->|NE]; cbn.
    + destruct (N.eqb k' a); reflexivity.
    + destruct (N.ltb k a); cbn.
      * destruct (N.eqb_spec k' k); reflexivity.
      * rewrite IH. destruct (N.eqb_spec k' a) as [->|]; [|reflexivity].
        destruct (N.eqb_spec a k); [congruence|reflexivity].
Qed.

Lemma alookup_aremove {A} (m : list (N * A)) k k' :
  alookup (aremove m k) k' = if N.eqb k' k then None else alookup m k'.
Proof.
  induction m as [|[a b] m IH]; cbn.
  - destruct (N.eqb k' k); reflexivity.
  - destruct (N.eqb_spec k a) as [->|NE]; cbn.
    + rewrite IH. destruct (N.eqb_spec k' a); reflexivity.
    + rewrite IH. destruct (N.eqb_spec k' a) as [->|]; [|reflexivity].
      destruct (N.eqb_spec a k); [congruence|reflexivity].
Qed.

Lemma amem_ainsert {A} (m : list (N * A)) k v k' : amem (ainsert m k v) k' = (N.eqb k' k || amem m k').
Proof. unfold amem. rewrite alookup_ainsert. destruct (N.eqb k' k); reflexivity. Qed.

Lemma amem_aremove {A} (m : list (N * A)) k k' : amem (aremove m k) k' = (negb (N.eqb k' k) && amem m k').
Proof. unfold amem. rewrite alookup_aremove. destruct (N.eqb k' k); reflexivity. Qed.

Lemma smem_In s k : smem s k = true <-> In k s.
Proof.
  induction s as [|x s IH]; cbn; [split; [discriminate|tauto]|].
  destruct (N.eqb_spec k x); [split; auto|]. rewrite IH. split; [auto|]. intros [H|H]; [congruence|exact H].
Qed.

Lemma sinsert_In s k x : In x (sinsert s k) <-> x = k \/ In x s.
Proof.
  induction s as [|y s IH]; cbn; [intuition auto|].
  destruct (N.eqb_spec k y); [subst; cbn; intuition auto|].
  destruct (N.ltb k y); cbn; [intuition auto|]. rewrite IH. intuition auto.
Qed.

Lemma sremove_In s k x : In x (sremove s k) <-> In x s /\ x <> k.
Proof.
  induction s as [|y s IH]; cbn; [tauto|].
  destruct (N.eqb_spec k y); cbn; rewrite IH; intuition congruence.
Qed.

Lemma smem_sinsert s k x : smem (sinsert s k) x = (x =? k) || smem s x.
Proof. apply eq_true_iff_eq. rewrite orb_true_iff, !smem_In, sinsert_In, N.eqb_eq. reflexivity. Qed.

Lemma smem_sremove s k x : smem (sremove s k) x = negb (x =? k) && smem s x.
Proof. apply eq_true_iff_eq. rewrite andb_true_iff, negb_true_iff, !smem_In, sremove_In, N.eqb_neq. tauto. Qed.

Lemma fold_sinsert_In l : forall acc x, In x (fold_left sinsert l acc) <-> In x acc \/ In x l.
Proof.
  induction l as [|y l IH]; intros acc x; cbn; [tauto|]. rewrite IH, sinsert_In. intuition auto.
Qed.
