(* ListFacts.v: facts about [firstn] / [skipn] / [nth_error] / [filter] that the standard
   library of Coq 8.16 does not have. *)
From Coq Require Import List Arith Lia Permutation.
Import ListNotations.

Lemma firstn_add {A} (l : list A) : forall a b, firstn (a + b) l = firstn a l ++ firstn b (skipn a l).
Proof.
  induction l as [|x l IH]; intros a b.
  - rewrite !firstn_nil, skipn_nil, firstn_nil. reflexivity.
  - destruct a; cbn; [reflexivity|]. rewrite IH. reflexivity.
Qed.

Lemma skipn_skipn {A} (l : list A) : forall a b, skipn a (skipn b l) = skipn (a + b) l.
Proof.
  induction l as [|x l IH]; intros a b.
  - rewrite !skipn_nil. reflexivity.
  - destruct b; [rewrite Nat.add_0_r; reflexivity|].
    rewrite Nat.add_succ_r. cbn [skipn]. apply IH.
Qed.

Lemma nth_error_firstn {A} (l : list A) : forall k i, i < k -> nth_error (firstn k l) i = nth_error l i.
Proof.
  induction l as [|x l IH]; intros k i L; destruct k, i; cbn; try reflexivity; try lia.
  apply IH. lia.
Qed.

Lemma nth_error_skipn {A} (l : list A) : forall p c, nth_error (skipn p l) c = nth_error l (p + c).
Proof.
  induction l as [|x l IH]; intros p c.
  - rewrite skipn_nil. destruct c, p; reflexivity.
  - destruct p; cbn; [reflexivity|apply IH].
Qed.

Lemma nth_error_Some_lt {A} (l : list A) i e : nth_error l i = Some e -> i < length l.
Proof. intros H. apply nth_error_Some. congruence. Qed.

Lemma skipn_nth_error_cons {A} (l : list A) p e :
  nth_error l p = Some e <-> exists t, skipn p l = e :: t.
Proof.
  revert l. induction p as [|p IH]; intros [|x l]; cbn.
  - split; [discriminate|intros [t H]; discriminate].
  - split; [intros H; inversion H; eauto|intros [t H]; inversion H; reflexivity].
  - split; [discriminate|intros [t H]; discriminate].
  - apply IH.
Qed.

Lemma filter_length_le {A} (f g : A -> bool) l :
  (forall x, In x l -> f x = true -> g x = true) -> length (filter f l) <= length (filter g l).
Proof.
  induction l as [|x l IH]; intros H; cbn; [lia|].
  assert (IH' := IH (fun y Hy => H y (or_intror Hy))).
  destruct (f x) eqn:F; [rewrite (H x (or_introl eq_refl) F); cbn; lia|destruct (g x); cbn; lia].
Qed.

Lemma filter_length_perm {A} (f : A -> bool) l l' :
  Permutation l l' -> length (filter f l) = length (filter f l').
Proof.
  induction 1 as [|x l l' HP IH|x y l|l l' l'' HP1 IH1 HP2 IH2]; simpl.
  - reflexivity.
  - destruct (f x); simpl; lia.
  - destruct (f x), (f y); simpl; lia.
  - lia.
Qed.
