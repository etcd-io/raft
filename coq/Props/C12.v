(* C12 Quorum arithmetic: majority and joint decisions are exact.
   This file holds only the property statements; each theorem is closed by lemmas of
   Proofs/QuorumProofs.v and followed by Print Assumptions.  [vs], [c0], [c1] are the key
   lists of the Go maps (duplicate free by construction; no proof below needs that). *)
From Coq Require Import List NArith Lia Sorting.Permutation.
From RaftV Require Import Base Quorum QuorumProofs.
Import ListNotations.

(* The committed index of a non-empty voter set is the greatest index acknowledged by a
   strict majority, missing voters counting as 0. *)
Theorem C12_majority_committed : forall vs ack,
  vs <> [] ->
  majority_acked vs ack (majority_committed vs ack) /\
  forall i, majority_acked vs ack i -> (i <= majority_committed vs ack)%N.
Proof. exact majority_committed_greatest. Qed.
Print Assumptions C12_majority_committed.

Theorem C12_majority_committed_empty : forall ack, majority_committed [] ack = maxU64.
Proof. exact majority_committed_empty. Qed.
Print Assumptions C12_majority_committed_empty.

(* joint = minimum of both halves; an empty half imposes no constraint *)
Theorem C12_joint_committed : forall c0 c1 ack,
  joint_committed c0 c1 ack = N.min (majority_committed c0 ack) (majority_committed c1 ack).
Proof. exact joint_committed_min. Qed.
Print Assumptions C12_joint_committed.

Theorem C12_joint_committed_empty_half : forall c0 ack,
  Forall (fun kv => (snd kv <= maxU64)%N) ack ->
  joint_committed c0 [] ack = majority_committed c0 ack /\
  joint_committed [] c0 ack = majority_committed c0 ack.
Proof. exact joint_committed_empty_half. Qed.
Print Assumptions C12_joint_committed_empty_half.

(* Won / Lost / Pending for one set: exact, exclusive and exhaustive *)
Theorem C12_majority_vote : forall vs votes,
  vs <> [] ->
  (majority_vote vs votes = VoteWon <-> yes_majority vs votes) /\
  (majority_vote vs votes = VoteLost <-> majority_impossible vs votes) /\
  (majority_vote vs votes = VotePending <->
     ~ yes_majority vs votes /\ ~ majority_impossible vs votes).
Proof. exact majority_vote_spec. Qed.
Print Assumptions C12_majority_vote.

Theorem C12_majority_vote_empty : forall votes, majority_vote [] votes = VoteWon.
Proof. exact majority_vote_empty. Qed.
Print Assumptions C12_majority_vote_empty.

(* joint: Won iff every (non-empty) half has a yes majority, Lost iff that has become
   impossible for some half, Pending otherwise *)
Theorem C12_joint_vote : forall c0 c1 votes,
  (joint_vote c0 c1 votes = VoteWon <-> half_won c0 votes /\ half_won c1 votes) /\
  (joint_vote c0 c1 votes = VoteLost <-> half_lost c0 votes \/ half_lost c1 votes) /\
  (joint_vote c0 c1 votes = VotePending <->
     ~ (half_won c0 votes /\ half_won c1 votes) /\ ~ (half_lost c0 votes \/ half_lost c1 votes)).
Proof. exact joint_vote_spec. Qed.
Print Assumptions C12_joint_vote.

(* map-iteration order is irrelevant (the quorum half of C19) *)
Theorem C12_order_independent : forall c0 c0' c1 c1' ack votes,
  Permutation c0 c0' -> Permutation c1 c1' ->
  joint_committed c0 c1 ack = joint_committed c0' c1' ack /\
  joint_vote c0 c1 votes = joint_vote c0' c1' votes.
Proof.
  intros c0 c0' c1 c1' ack votes H0 H1. split.
  - exact (joint_committed_perm c0 c0' c1 c1' ack H0 H1).
  - exact (joint_vote_perm c0 c0' c1 c1' votes H0 H1).
Qed.
Print Assumptions C12_order_independent.

(* non-vacuity: concrete instances meeting the hypotheses, with the expected results *)
Example C12_ex_commit :
  majority_committed [1;2;3]%N [(1,5);(2,3)]%N = 3%N /\
  majority_acked [1;2;3]%N [(1,5);(2,3)]%N 3%N /\ ~ majority_acked [1;2;3]%N [(1,5);(2,3)]%N 4%N.
Proof. unfold majority_acked. vm_compute. repeat split; lia. Qed.
Example C12_ex_vote :
  joint_vote [1;2;3]%N [4]%N [(1,true);(2,true)] = VotePending /\
  joint_vote [1;2;3]%N [4]%N [(1,true);(2,true);(4,false)] = VoteLost /\
  joint_vote [1;2;3]%N [4]%N [(1,true);(2,true);(4,true)] = VoteWon.
Proof. vm_compute. auto. Qed.
