(* C16 Flow-control and size limits are respected.  Statements only; proofs in
   Proofs/FlowProofs.v, InflRefine.v, FlowInvProofs.v, over Model/Storage.v (limitSize), Model/Log.v (slice/entries),
   Model/Raft.v (maybeSendAppend, appendEntry), Model/Progress.v (Inflights). *)
From Coq Require Import List NArith.
From RaftV Require InflRefine.
From RaftV Require Import Base Types Progress Tracker Storage Log Raft FlowProofs.
Import ListNotations.
Open Scope N_scope.

(* limitSize: a non-empty prefix, within the budget unless it is a single entry *)
Theorem C16_limit_size : forall ents maxSize,
  ents <> [] ->
  exists k, limit_size ents maxSize = firstn (S k) ents /\ fits (limit_size ents maxSize) maxSize.
Proof. exact limit_size_spec. Qed.
Print Assumptions C16_limit_size.

(* raftLog.slice / entries over storage + unstable, for every log and storage state *)
Theorem C16_slice : forall st l lo hi maxSize es e,
  l_slice st l lo hi maxSize = Ok (es, e) -> fits_or_empty es maxSize.
Proof. exact l_slice_fits. Qed.
Print Assumptions C16_slice.

(* every MsgApp queued by maybeSendAppend carries entries of total size <= MaxSizePerMsg
   unless it carries a single entry; nothing at all is sent to a follower in StateSnapshot *)
Theorem C16_msgapp : forall st r to sie r' b,
  maybe_send_append st r to sie = Ok (r', b) ->
  forall pr, get_progress r to = Some pr ->
  (pr_state_ pr = StateSnapshot -> r' = r /\ b = false) /\
  (forall m, In m (r_msgs r') -> ~ In m (r_msgs r) -> m_type m = MsgApp ->
             fits_or_empty (m_entries m) (r_max_msg_size r)).
Proof. exact maybe_send_append_msgs. Qed.
Print Assumptions C16_msgapp.

(* the uncommitted-size budget: refused exactly when the log already holds uncommitted
   payload, the proposal is non-empty and the sum would exceed the limit; a refusal changes
   nothing; an acceptance stays within the limit unless it starts from zero (the "plus one
   proposal") or is empty *)
Theorem C16_uncommitted : forall r es r' ok,
  increase_uncommitted_size r es = (r', ok) ->
  let s := payloads_size es in
  (ok = false <-> 0 < r_uncommitted_size r /\ 0 < s /\ r_max_uncommitted_size r < r_uncommitted_size r + s) /\
  (ok = false -> r' = r) /\
  (ok = true -> r_uncommitted_size r' = r_uncommitted_size r + s /\
                (r_uncommitted_size r' <= r_max_uncommitted_size r \/ r_uncommitted_size r = 0 \/ s = 0)).
Proof. exact increase_uncommitted_spec. Qed.
Print Assumptions C16_uncommitted.

Theorem C16_dropped_appends_nothing : forall st r es r',
  append_entry st r es = Ok (r', false) -> r' = r.
Proof. exact append_entry_dropped. Qed.
Print Assumptions C16_dropped_appends_nothing.

(* Inflights: the window never exceeds its size; adding to a full window is refused *)
Theorem C16_inflights_add : forall i idx b i',
  infl_inv i -> infl_add i idx b = Ok i' ->
  infl_inv i' /\ in_count i' = in_count i + 1 /\ in_bytes i' = in_bytes i + b /\
  in_size i' = in_size i /\ in_maxbytes i' = in_maxbytes i.
Proof. exact infl_add_inv. Qed.
Print Assumptions C16_inflights_add.

Theorem C16_inflights_full : forall i idx b, infl_full i = true -> infl_add i idx b = Panic PInflightsAddFull.
Proof. exact infl_add_full. Qed.
Print Assumptions C16_inflights_full.

Theorem C16_inflights_free : forall i to,
  infl_inv i -> infl_inv (infl_free_le i to) /\ in_count (infl_free_le i to) <= in_count i.
Proof. exact infl_free_le_inv. Qed.
Print Assumptions C16_inflights_free.


(* ---------- tracker.Inflights is a plain window (Proofs/InflRefine.v) ---------- *)

(* Data refinement of the ring buffer (start, count, a buffer that grows by doubling up to size, with
   wrap-around) to a list of (index, bytes), oldest first: Add panics exactly when the window is full
   (by count, or by bytes when a byte limit is set) and otherwise appends; FreeLE drops exactly the
   leading entries whose index is <= to; reset empties it; Count and Full are the length and the
   fullness of the window.  [infl_ok] is the representation invariant; it holds of NewInflights. *)
Theorem C16_inflights_refines_window : forall i o,
  InflRefine.infl_ok i ->
  match InflRefine.cstep i o, InflRefine.astep (in_size i) (in_maxbytes i) (infl_window i) o with
  | Ok i', Some w' =>
      InflRefine.infl_ok i' /\ infl_window i' = w' /\ in_size i' = in_size i /\ in_maxbytes i' = in_maxbytes i /\
      infl_count i' = nlen w' /\ infl_full i' = InflRefine.afull (in_size i) (in_maxbytes i) w'
  | Panic _, None => True
  | _, _ => False
  end.
Proof. exact InflRefine.infl_refines. Qed.
Print Assumptions C16_inflights_refines_window.

Theorem C16_new_inflights_ok : forall size mb,
  InflRefine.infl_ok (new_inflights size mb) /\ infl_window (new_inflights size mb) = [].
Proof. exact InflRefine.infl_new_ok. Qed.
Print Assumptions C16_new_inflights_ok.

(* what every window reached by these operations guarantees: at most [size] messages in flight and,
   with a byte limit, everything but the newest message stays below the limit *)
Theorem C16_window_budget : forall size mb w o w',
  InflRefine.window_inv size mb w -> InflRefine.astep size mb w o = Some w' -> InflRefine.window_inv size mb w'.
Proof. exact InflRefine.window_inv_step. Qed.
Print Assumptions C16_window_budget.

(* ---- the window as an invariant of the node (Proofs/FlowInvProofs.v) ---- *)
From RaftV Require Import RawNode NodeProps.
From RaftV Require FlowInvProofs StreamEx.

(* [pinv M B r]: the tracker's limits are M (MaxInflightMsgs) and B (MaxInflightBytes), and every
   Progress has a window that represents at most M messages and, under a byte limit, keeps all but
   its newest message below B.  Every message of any type, term and content keeps it ... *)
Theorem C16_window_invariant_step : forall M B st r m r' e,
  step st r m = Ok (r', e) -> FlowInvProofs.pinv M B r -> FlowInvProofs.pinv M B r'.
Proof. exact FlowInvProofs.step_pk. Qed.
Print Assumptions C16_window_invariant_step.

(* ... every tick keeps it ... *)
Theorem C16_window_invariant_tick : forall M B st r r',
  tick st r = Ok r' -> FlowInvProofs.pinv M B r -> FlowInvProofs.pinv M B r'.
Proof. exact FlowInvProofs.tick_pk. Qed.
Print Assumptions C16_window_invariant_tick.

(* ... a configuration change or a snapshot restore installs fresh windows of the same limits ... *)
Theorem C16_window_invariant_conf_change : forall M B st r cc r' cs,
  apply_conf_change_raft st r cc = Ok (r', cs) -> FlowInvProofs.pinv M B r -> FlowInvProofs.pinv M B r'.
Proof. exact FlowInvProofs.apply_conf_change_raft_pk. Qed.
Print Assumptions C16_window_invariant_conf_change.

(* ... so does every input of the RawNode API, over every history of an incarnation ... *)
Theorem C16_window_invariant_history : forall M B ins n n' rn,
  n_rn n = Some rn -> FlowInvProofs.rpinv M B rn ->
  Forall (fun id => same_incarnation (fst id) = true) ins ->
  node_run n ins = Ok n' ->
  exists rn', n_rn n' = Some rn' /\ FlowInvProofs.rpinv M B rn'.
Proof. exact FlowInvProofs.node_run_pinv. Qed.
Print Assumptions C16_window_invariant_history.

(* ... and a new node starts with it, for the limits of its configuration *)
Theorem C16_window_invariant_start : forall st c d rn,
  new_rawnode st c d = Ok rn ->
  FlowInvProofs.rpinv (cfg_max_inflight_msgs c)
    (if N.eqb (cfg_max_inflight_bytes c) 0 then noLimit else cfg_max_inflight_bytes c) rn.
Proof. exact FlowInvProofs.new_rawnode_pinv. Qed.
Print Assumptions C16_window_invariant_start.

(* what it means: in every such state no follower has more than MaxInflightMsgs appends in flight,
   nor, under a byte limit, more than MaxInflightBytes beyond the one message that crosses it *)
Theorem C16_window_bounds : forall M B r id pr,
  FlowInvProofs.pinv M B r -> get_progress r id = Some pr ->
  infl_count (pr_inflights pr) <= M /\
  (B <> 0 -> InflRefine.sumb (removelast (infl_window (pr_inflights pr))) < B \/ infl_window (pr_inflights pr) = []).
Proof. exact FlowInvProofs.pinv_bounds. Qed.
Print Assumptions C16_window_bounds.
