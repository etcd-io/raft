(* C15 Progress after faults stop: the enabling mechanisms, as node-local lemmas.  The
   end-to-end convergence claim is explored by the harness, not proved. *)
From Coq Require Import List NArith.
From RaftV Require TickProofs.
From RaftV Require Import Base Types Quorum Progress Tracker Storage Log Raft RawNode QuorumProofs RaftMono RaftRouting NodeProps PreVoteProofs LocalProofs FlowProofs LogProofs ConfProofs.
Import ListNotations.
Open Scope N_scope.

Theorem C15_heartbeat_resp_unpauses : forall st r m r' e pr,
  m_type m = MsgHeartbeatResp -> get_progress r (m_from m) = Some pr ->
  pr_match pr = l_last_index st (r_log r) -> pr_state_ pr <> StateProbe -> m_context m = [] ->
  step_leader st r m = Ok (r', e) ->
  get_progress r' (m_from m) = Some (pr_with_paused (pr_with_recent_active pr true) false).
Proof. exact heartbeat_resp_unpauses. Qed.
Print Assumptions C15_heartbeat_resp_unpauses.

(* (outside an auto-leave joint configuration; inside one the same tick first aborts the transfer
   and then retries the proposal that leaves the joint configuration: the F7 repair) *)
Theorem C15_transfer_aborted : forall st r r',
  r_state r = StateLeader -> r_check_quorum r = false ->
  c_auto_leave (t_config (r_trk r)) = false ->
  r_election_timeout r <= r_election_elapsed r + 1 ->
  r_heartbeat_elapsed r + 1 < r_heartbeat_timeout r ->
  tick_heartbeat st r = Ok r' -> r_lead_transferee r' = NoneId.
Proof. exact TickProofs.transfer_aborted_on_timeout. Qed.
Print Assumptions C15_transfer_aborted.


(* the F7 repair: in an auto-leave joint configuration whose changes are all applied, the tick that
   gives up a pending leadership transfer goes on to step the proposal that leaves the joint
   configuration, on a state in which the transfer is already aborted (so the proposal is not
   dropped for that reason any more) *)
Theorem C15_transfer_abort_retries_auto_leave : forall st r r',
  r_state r = StateLeader -> r_check_quorum r = false ->
  c_auto_leave (t_config (r_trk r)) = true -> r_pending_conf_index r <= l_applied (r_log r) ->
  r_lead_transferee r <> NoneId ->
  r_election_timeout r <= r_election_elapsed r + 1 ->
  tick_heartbeat st r = Ok r' ->
  let r0 := set_r_lead_transferee
              (set_r_election_elapsed (set_r_election_elapsed (set_r_heartbeat_elapsed r (r_heartbeat_elapsed r + 1))
                                                              (r_election_elapsed r + 1)) 0) NoneId in
  exists l x,
    l_applied_to (r_log r0) (l_applied (r_log r0)) 0 = Ok l /\
    step_inner st (set_r_log r0 l) leave_joint_prop = Ok x /\
    r_lead_transferee (set_r_log r0 l) = NoneId.
Proof. exact TickProofs.transfer_abort_retries_auto_leave. Qed.
Print Assumptions C15_transfer_abort_retries_auto_leave.

(* the election timer of a node that is not leader (Proofs/TickProofs.v): a tick before the
   randomized timeout only advances the timer; the tick that reaches it makes a node that may
   campaign (a voter, no snapshot pending, no committed configuration change waiting to be applied)
   a pre-candidate or a candidate.  With the bound on the randomized timeout (below twice the
   election timeout) this is the "within a bounded number of election timeouts somebody campaigns"
   step of the convergence argument; the rest of it is explored, not proved. *)
Theorem C15_election_timer_counts : forall st r r',
  r_state r <> StateLeader -> r_election_elapsed r + 1 < r_randomized_election_timeout r ->
  tick st r = Ok r' -> r' = set_r_election_elapsed r (r_election_elapsed r + 1).
Proof. exact TickProofs.tick_election_counts. Qed.
Print Assumptions C15_election_timer_counts.

Theorem C15_election_timeout_fires : forall st r r',
  r_state r <> StateLeader ->
  r_randomized_election_timeout r <= r_election_elapsed r + 1 ->
  promotable r = true -> has_unapplied_conf_changes st r = Ok false ->
  tick st r = Ok r' ->
  r_state r' = if r_pre_vote r then StatePreCandidate else StateCandidate.
Proof. exact TickProofs.election_timeout_fires. Qed.
Print Assumptions C15_election_timeout_fires.


(* a node that cannot campaign never restarts its election timer by itself (the seeded change
   C15_election_elapsed_reset negates this and lets such a node renew a dead leader's lease for ever) *)
Theorem C15_nonpromotable_timer_counts : forall st r r',
  r_state r <> StateLeader -> promotable r = false ->
  tick st r = Ok r' -> r' = set_r_election_elapsed r (r_election_elapsed r + 1).
Proof. exact TickProofs.nonpromotable_timer_counts. Qed.
Print Assumptions C15_nonpromotable_timer_counts.
