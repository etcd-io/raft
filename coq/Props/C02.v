(* C02 Election safety, node-local half: one durable vote per term, votes only for up-to-date
   logs, leadership only on a joint-quorum tally.  Proofs in Proofs/LocalProofs.v, RaftMono.v,
   RoleProofs.v, Spec/Election.v. *)
From Coq Require Import List NArith.
From RaftV Require Import Base Types Quorum Progress Tracker Storage Log Raft RawNode QuorumProofs Election RaftMono RaftRouting NodeProps PreVoteProofs LocalProofs FlowProofs LogProofs ConfProofs.
Import ListNotations.
Open Scope N_scope.

(* one vote per term, over every message and across the whole incarnation: this is the vote
   clause of [hs_le] (C07) *)
Theorem C02_one_vote_per_term : forall st r m r' e,
  wf_msg m -> step st r m = Ok (r', e) -> hs_le (hard_state r) (hard_state r').
Proof. exact step_mono. Qed.
Print Assumptions C02_one_vote_per_term.

Theorem C02_vote_grant_conditions : forall st r m r' e,
  (m_type m = MsgVote \/ m_type m = MsgPreVote) ->
  step_dispatch st (step_inner st) r m = Ok (r', e) ->
  forall x, In x (r_msgs_after_append r') -> ~ In x (r_msgs_after_append r) -> m_reject x = false ->
  l_is_up_to_date st (r_log r) (m_logterm m) (m_index m) = Ok true /\
  (r_vote r = m_from m \/ (r_vote r = NoneId /\ r_lead r = NoneId) \/
   (m_type m = MsgPreVote /\ r_term r < m_term m)) /\
  (m_type m = MsgVote -> r_vote r' = m_from m) /\
  m_to x = m_from m /\ m_term x = m_term m.
Proof. exact vote_grant_conditions. Qed.
Print Assumptions C02_vote_grant_conditions.

Theorem C02_leader_needs_quorum : forall st r m r' e,
  r_state r = StateCandidate -> step_candidate st r m = Ok (r', e) -> r_state r' = StateLeader ->
  m_type m = MsgVoteResp /\
  joint_vote (c_voters (t_config (r_trk r))) (c_outgoing (t_config (r_trk r)))
             (t_votes (record_vote (r_trk r) (m_from m) (negb (m_reject m)))) = VoteWon /\
  (* ... and only once its own vote is recorded, which happens after term and vote are durable *)
  alookup (t_votes (record_vote (r_trk r) (m_from m) (negb (m_reject m)))) (r_id r) = Some true.
Proof. exact candidate_becomes_leader_only_on_quorum. Qed.
Print Assumptions C02_leader_needs_quorum.

(* a restarted node continues from its durable term and vote *)
Theorem C02_restart : forall st c d rn,
  new_rawnode st c d = Ok rn ->
  inv_rn rn /\
  match ms_hardstate st with
  | Some h => if is_empty_hs h
              then hard_state (rn_raft rn) = mkHS 0 0 (ms_first_index st - 1)
              else hard_state (rn_raft rn) = h
  | None => hard_state (rn_raft rn) = mkHS 0 0 (ms_first_index st - 1)
  end.
Proof. exact new_rawnode_hs. Qed.
Print Assumptions C02_restart.


(* ---------- protocol level (Spec/Election.v) ---------- *)

(* Election Safety: in any history of grants in which every voter votes at most once per term
   (C02_one_vote_per_term, across incarnations by C02_restart), two nodes that each hold
   grants of term t from a majority of a common voter set are the same node. *)
Theorem C02_election_safety : forall gs vs t c1 c2,
  votes_unique gs -> has_majority gs vs t c1 -> has_majority gs vs t c2 -> c1 = c2.
Proof. exact election_safety. Qed.
Print Assumptions C02_election_safety.

(* joint configurations: winners whose configurations share a non-empty voter set coincide *)
Theorem C02_election_safety_joint : forall gs a0 a1 b0 b1 t c1 c2 shared,
  votes_unique gs -> shared <> [] ->
  (shared = a0 \/ shared = a1) -> (shared = b0 \/ shared = b1) ->
  wins gs a0 a1 t c1 -> wins gs b0 b1 t c2 -> c1 = c2.
Proof. exact election_safety_joint. Qed.
Print Assumptions C02_election_safety_joint.

(* the tally of the code (VoteWon of joint_vote, C12) over recorded votes that stem from
   grants is a win in that sense: this links C02_leader_needs_quorum to the protocol level *)
Theorem C02_vote_won_wins : forall gs c0 c1 votes t c,
  (forall v, alookup votes v = Some true -> granted gs v t c = true) ->
  joint_vote c0 c1 votes = VoteWon -> wins gs c0 c1 t c.
Proof. exact vote_won_wins. Qed.
Print Assumptions C02_vote_won_wins.

(* the vote is not forgotten by an application that syncs only when it is told to: a Ready that
   exposes a new term or a new vote, or carries entries, asks for a durable write
   (Proofs/RoleProofs.v; the seeded change C02_mustsync_ignores_vote negates this) *)
From RaftV Require RoleProofs.
Theorem C02_new_vote_must_sync : forall st rn rd,
  ready_without_accept st rn = Ok rd ->
  (hs_term (hard_state (rn_raft rn)) <> hs_term (rn_prev_hard rn) \/
   hs_vote (hard_state (rn_raft rn)) <> hs_vote (rn_prev_hard rn) \/
   u_next_entries (l_unstable (r_log (rn_raft rn))) <> []) ->
  rd_must_sync rd = true.
Proof. exact RoleProofs.ready_must_sync. Qed.
Print Assumptions C02_new_vote_must_sync.
