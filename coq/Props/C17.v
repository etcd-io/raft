(* C17 PreVote and CheckQuorum prevent disruption.  Statements only (proofs in
   Proofs/PreVoteProofs.v, CheckQuorumProofs.v, RoleProofs.v), over Model/Raft.v, for every state and every message. *)
From Coq Require Import List NArith.
From RaftV Require Import Base Types Quorum Progress Tracker Storage Log Raft RawNode RaftMono PreVoteProofs.
From RaftV Require Import CheckQuorumProofs CheckQuorumEx.
Import ListNotations.
Open Scope N_scope.

(* receiving a pre-vote request never changes the receiver's term or vote *)
Theorem C17_prevote_request_no_effect : forall st r m r' e,
  m_type m = MsgPreVote -> step st r m = Ok (r', e) -> same_tv r r'.
Proof. exact prevote_request_no_effect. Qed.
Print Assumptions C17_prevote_request_no_effect.

(* becoming a pre-candidate leaves term and vote untouched *)
Theorem C17_become_pre_candidate : forall r r', become_pre_candidate r = Ok r' -> same_tv r r'.
Proof. exact become_pre_candidate_tv. Qed.
Print Assumptions C17_become_pre_candidate.

(* with PreVote, an election timeout or Campaign() (MsgHup) does not raise the term *)
Theorem C17_hup_keeps_term : forall st r m r' e,
  m_type m = MsgHup -> m_term m = 0 -> r_pre_vote r = true ->
  step st r m = Ok (r', e) -> same_tv r r'.
Proof. exact prevote_hup_keeps_term. Qed.
Print Assumptions C17_hup_keeps_term.

(* a pre-candidate raises its term only when a MsgPreVoteResp (a rejection, or a grant for
   exactly Term+1) completes the tally over the joint configuration (the decision function
   of C12), or a leader message of its term arrives *)
Theorem C17_precandidate_term_raise : forall st r m r' e,
  r_state r = StatePreCandidate -> step_candidate st r m = Ok (r', e) -> r_term r' <> r_term r ->
  from_leader (m_type m) = true \/
  (m_type m = MsgPreVoteResp /\ (m_reject m = true \/ m_term m = r_term r + 1) /\
   joint_vote (c_voters (t_config (r_trk r))) (c_outgoing (t_config (r_trk r)))
              (t_votes (record_vote (r_trk r) (m_from m) (negb (m_reject m)))) <> VotePending).
Proof. exact precandidate_term_raise. Qed.
Print Assumptions C17_precandidate_term_raise.

(* a pre-vote grant for any other term (a stale answer to an earlier pre-campaign) is ignored *)
Theorem C17_stale_grant_ignored : forall st r m r' e,
  r_state r = StatePreCandidate -> m_type m = MsgPreVoteResp -> m_reject m = false ->
  m_term m <> r_term r + 1 -> step_candidate st r m = Ok (r', e) -> r' = r.
Proof. exact stale_prevote_grant_ignored. Qed.
Print Assumptions C17_stale_grant_ignored.

(* CheckQuorum lease: inside the election timeout of a known leader, a non-forced higher-term
   vote or pre-vote request changes nothing and produces nothing *)
Theorem C17_in_lease_ignored : forall st r m r' e,
  (m_type m = MsgVote \/ m_type m = MsgPreVote) ->
  r_check_quorum r = true -> r_lead r <> NoneId -> r_election_elapsed r < r_election_timeout r ->
  r_term r < m_term m -> m_context m <> campaign_transfer_ctx ->
  step st r m = Ok (r', e) -> r' = r /\ e = ENone.
Proof. exact in_lease_vote_ignored. Qed.
Print Assumptions C17_in_lease_ignored.


(* ---- CheckQuorum: the step-down of a leader (Proofs/CheckQuorumProofs.v) ---- *)

(* whatever message a leader steps (any type, term and content, except a leadership-transfer
   request and the local check itself): if it is still leader of its term afterwards, its term,
   vote, lead, election timer and configuration are unchanged and the only peer that can be newly
   marked recently active is the sender of a MsgAppResp or MsgHeartbeatResp *)
Theorem C17_leader_hears_only_responses : forall st r m r' e,
  r_state r = StateLeader -> r_lead r <> NoneId -> admissible r m ->
  step st r m = Ok (r', e) ->
  r_state r' = StateLeader -> r_term r' = r_term r -> lk (heard m) r r'.
Proof. exact step_leader_frame. Qed.
Print Assumptions C17_leader_hears_only_responses.

(* one tick of a leader with CheckQuorum that stays leader of its term: the election timer
   advances, or the check fires, finds a quorum marked active, restarts the timer and clears every
   mark but the leader's own *)
Theorem C17_check_quorum_tick : forall st r r',
  r_state r = StateLeader -> r_check_quorum r = true -> r_lead r <> NoneId ->
  tick st r = Ok r' -> r_state r' = StateLeader -> r_term r' = r_term r ->
  lstate0 r' = lstate0 r /\
  if r_election_timeout r <=? r_election_elapsed r + 1
  then quorum_active (r_trk r) = true /\ r_election_elapsed r' = 0 /\ act_in (fun i => i = r_id r) r'
  else r_election_elapsed r' = r_election_elapsed r + 1 /\ forall S, act_in S r -> act_in S r'.
Proof. exact tick_leader. Qed.
Print Assumptions C17_check_quorum_tick.

(* over every sequence of ticks and messages: a leader that hears only from peers that together
   with itself are not a quorum (by the decision function of C12, for every voter set of a joint
   configuration) is no longer leader of its term after at most two election timeouts of ticks *)
Theorem C17_check_quorum_steps_down : forall st r H ops rf,
  r_state r = StateLeader -> r_check_quorum r = true -> r_lead r <> NoneId ->
  1 <= r_election_timeout r ->
  no_quorum r H -> ops_ok r H ops ->
  lrun st r ops = Ok rf -> 2 * r_election_timeout r <= ticks ops ->
  left_term st r ops.
Proof. exact check_quorum_steps_down. Qed.
Print Assumptions C17_check_quorum_steps_down.

(* the hypotheses are satisfiable: an elected leader of three voters that only ticks *)
Theorem C17_check_quorum_nonvacuous :
  exists st r ops rf,
    r_state r = StateLeader /\ r_check_quorum r = true /\ r_lead r <> NoneId /\
    1 <= r_election_timeout r /\ no_quorum r [] /\ ops_ok r [] ops /\
    lrun st r ops = Ok rf /\ 2 * r_election_timeout r <= ticks ops /\
    r_state rf = StateFollower /\ left_term st r ops.
Proof. exact check_quorum_nonvacuous. Qed.
Print Assumptions C17_check_quorum_nonvacuous.


(* the exclusion of leadership-transfer requests is necessary: with them the leader of the example
   above still leads its term after three election timeouts of ticks without hearing from anybody
   (finding F13; replayed on the implementation by corpus/f13_transfer_postpones_checkquorum.sched) *)
Theorem C17_unrestricted_refuted :
  exists st r ops rf,
    r_state r = StateLeader /\ r_check_quorum r = true /\ r_lead r <> NoneId /\
    1 <= r_election_timeout r /\ no_quorum r [] /\
    Forall (fun o => match o with LTick => True | LStep m => marks m = false end) ops /\
    lrun st r ops = Ok rf /\ 2 * r_election_timeout r <= ticks ops /\
    ~ left_term st r ops.
Proof. exact check_quorum_unrestricted_refuted. Qed.
Print Assumptions C17_unrestricted_refuted.

(* ---- a leader knows itself as the leader (Proofs/RoleProofs.v) ----
   [coh r]: the node's id is not 0 and, if it is leader, its [lead] is its own id.  Established by
   newRaft, kept by every message, tick, configuration change and every input of the RawNode API;
   with it the hypothesis [r_lead r <> NoneId] of the CheckQuorum theorem above holds in every
   reachable state. *)
From RaftV Require RoleProofs.
From RaftV Require Import RawNode NodeProps.

Theorem C17_leader_knows_itself_step : forall st r m r' e,
  step st r m = Ok (r', e) -> RoleProofs.coh r -> RoleProofs.coh r'.
Proof. exact RoleProofs.step_ck. Qed.
Print Assumptions C17_leader_knows_itself_step.

Theorem C17_leader_knows_itself_tick : forall st r r',
  tick st r = Ok r' -> RoleProofs.coh r -> RoleProofs.coh r'.
Proof. exact RoleProofs.tick_ck. Qed.
Print Assumptions C17_leader_knows_itself_tick.

Theorem C17_leader_knows_itself_history : forall ins n n' rn,
  n_rn n = Some rn -> RoleProofs.rcoh rn ->
  Forall (fun id => same_incarnation (fst id) = true) ins ->
  node_run n ins = Ok n' ->
  exists rn', n_rn n' = Some rn' /\ RoleProofs.rcoh rn'.
Proof. exact RoleProofs.node_run_coh. Qed.
Print Assumptions C17_leader_knows_itself_history.

Theorem C17_leader_knows_itself_start : forall st c d rn,
  new_rawnode st c d = Ok rn -> RoleProofs.rcoh rn.
Proof. exact RoleProofs.new_rawnode_coh. Qed.
Print Assumptions C17_leader_knows_itself_start.

Theorem C17_check_quorum_steps_down_reachable : forall st r H ops rf,
  RoleProofs.coh r -> r_state r = StateLeader -> r_check_quorum r = true ->
  1 <= r_election_timeout r ->
  no_quorum r H -> ops_ok r H ops ->
  lrun st r ops = Ok rf -> 2 * r_election_timeout r <= ticks ops ->
  left_term st r ops.
Proof. exact RoleProofs.check_quorum_steps_down_reachable. Qed.
Print Assumptions C17_check_quorum_steps_down_reachable.

(* a granted pre-vote response at a node that is not a pre-candidate (a delayed answer to a
   pre-campaign that is over) changes nothing, whatever term it carries *)
Theorem C17_prevote_grant_elsewhere_ignored : forall st r m r' e,
  m_type m = MsgPreVoteResp -> m_reject m = false -> r_state r <> StatePreCandidate ->
  step st r m = Ok (r', e) -> r' = r.
Proof. exact RoleProofs.prevote_grant_elsewhere_ignored. Qed.
Print Assumptions C17_prevote_grant_elsewhere_ignored.
