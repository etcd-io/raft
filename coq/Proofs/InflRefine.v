(* InflRefine.v: tracker.Inflights (ring buffer that grows by doubling) refines a plain window:
   a list of (index, bytes), oldest first. *)
From Coq Require Import List NArith Bool Lia Arith.
From RaftV Require Import Base Types Progress.
Import ListNotations.
Open Scope N_scope.

Definition wrap (i : inflights) (p : N) : N := if in_size i <=? p then p - in_size i else p.
Definition wpos (i : inflights) (k : N) : N := wrap i (in_start i + k).

Fixpoint sumb (w : list (N * N)) : N := match w with [] => 0 | e :: r => snd e + sumb r end.

Definition infl_ok (i : inflights) : Prop :=
  in_count i <= in_size i /\
  nlen (in_buffer i) <= in_size i /\
  (in_start i < in_size i \/ in_start i = 0) /\
  (nlen (in_buffer i) < in_size i -> in_start i + in_count i <= nlen (in_buffer i)) /\
  (forall k, k < in_count i -> wpos i k < nlen (in_buffer i)) /\
  in_bytes i = sumb (infl_window i).

Section Ring.
Variable i : inflights.
Hypothesis S : in_start i < in_size i \/ in_start i = 0.

Lemma wpos_0 : wpos i 0 = in_start i.
Proof. unfold wpos, wrap. destruct (N.leb_spec (in_size i) (in_start i + 0)); lia. Qed.

Lemma wpos_small k : in_start i + k < in_size i -> wpos i k = in_start i + k.
Proof. intros L. unfold wpos, wrap. destruct (N.leb_spec (in_size i) (in_start i + k)); lia. Qed.

Lemma wpos_lt k : k < in_size i -> wpos i k < in_size i.
Proof. intros L. unfold wpos, wrap. destruct (N.leb_spec (in_size i) (in_start i + k)); lia. Qed.

Lemma wpos_add k q : k + q <= in_size i -> wrap i (wpos i k + q) = wpos i (k + q).
Proof.
  intros B. unfold wpos, wrap.
  destruct (N.leb_spec (in_size i) (in_start i + k)); destruct (N.leb_spec (in_size i) (in_start i + (k + q)));
    destruct (N.leb_spec (in_size i) (in_start i + k - in_size i + q)); destruct (N.leb_spec (in_size i) (in_start i + k + q)); lia.
Qed.

Lemma wpos_inj j j' : j < in_size i -> j' < in_size i -> j <> j' -> wpos i j <> wpos i j'.
Proof.
  intros A B NE. unfold wpos, wrap.
  destruct (N.leb_spec (in_size i) (in_start i + j)); destruct (N.leb_spec (in_size i) (in_start i + j')); lia.
Qed.

(* the loop over [j], a record with the size of [i], started at a position of [i] *)
Variable j : inflights.
Hypothesis Z : in_size j = in_size i.

Lemma window_loop_app : forall n m k, k + N.of_nat (n + m) <= in_size i ->
  infl_window_loop j (n + m) (wpos i k) =
  infl_window_loop j n (wpos i k) ++ infl_window_loop j m (wpos i (k + N.of_nat n)).
Proof.
  induction n as [|n IH]; intros m k B.
  - cbn. f_equal. f_equal. lia.
  - cbn [Nat.add infl_window_loop app]. f_equal.
    rewrite Z. fold (wrap i (wpos i k + 1)). rewrite wpos_add by lia.
    rewrite IH by lia. f_equal. f_equal. f_equal. lia.
Qed.

Lemma window_loop_ext : forall n k, k + N.of_nat n <= in_size i ->
  (forall q, k <= q < k + N.of_nat n -> buf_at j (wpos i q) = buf_at i (wpos i q)) ->
  infl_window_loop j n (wpos i k) = infl_window_loop i n (wpos i k).
Proof.
  induction n as [|n IH]; intros k B E; [reflexivity|].
  cbn [infl_window_loop]. rewrite Z. fold (wrap i (wpos i k + 1)). rewrite wpos_add by lia.
  f_equal; [apply E; lia|]. apply IH; [lia|]. intros q Q. apply E. lia.
Qed.
End Ring.

Lemma infl_ok_intro i :
  in_count i <= in_size i -> nlen (in_buffer i) <= in_size i -> in_start i < in_size i \/ in_start i = 0 ->
  (nlen (in_buffer i) < in_size i -> in_start i + in_count i <= nlen (in_buffer i)) ->
  in_bytes i = sumb (infl_window i) -> infl_ok i.
Proof.
  intros C BL S A BY. refine (conj C (conj BL (conj S (conj A (conj _ BY))))). intros k K.
  destruct (N.lt_ge_cases (nlen (in_buffer i)) (in_size i)) as [L|L].
  - rewrite (wpos_small i S) by lia. specialize (A L). lia.
  - apply N.lt_le_trans with (in_size i); [apply (wpos_lt i S); lia|exact L].
Qed.

Lemma window_loop_length i : forall n idx, length (infl_window_loop i n idx) = n.
Proof. induction n as [|n IH]; intros idx; cbn; [reflexivity|]. rewrite IH. reflexivity. Qed.

Lemma window_length i : length (infl_window i) = N.to_nat (in_count i).
Proof. apply window_loop_length. Qed.


Lemma list_set_length {A} (l : list A) : forall n x, length (list_set l n x) = length l.
Proof. induction l as [|h t IH]; intros [|n] x; cbn; auto. Qed.

Lemma nth_list_set_eq {A} (l : list A) : forall n x d, (n < length l)%nat -> nth n (list_set l n x) d = x.
Proof. induction l as [|h t IH]; intros [|n] x d H; cbn in *; try lia; auto; apply IH; lia. Qed.

Lemma nth_list_set_neq {A} (l : list A) : forall n m x d, n <> m -> nth m (list_set l n x) d = nth m l d.
Proof.
  induction l as [|h t IH]; intros [|n] [|m] x d H; cbn; auto; try contradiction; try (apply IH; lia).
Qed.

Lemma sumb_app a b : sumb (a ++ b) = sumb a + sumb b.
Proof. induction a as [|x a IH]; cbn [app sumb]; [reflexivity|]. rewrite IH. lia. Qed.


Lemma grow_buffer i : nlen (in_buffer i) < in_size i ->
  exists pad, in_buffer (infl_grow i) = in_buffer i ++ pad /\
              nlen (in_buffer i) < nlen (in_buffer i ++ pad) <= in_size i.
Proof.
  intros L. unfold infl_grow. cbn [in_buffer]. set (len := nlen (in_buffer i)) in *.
  set (ns := if N.eqb (len * 2) 0 then 1 else if in_size i <? len * 2 then in_size i else len * 2).
  assert (NS : len < ns <= in_size i).
  { unfold ns. destruct (N.eqb_spec (len * 2) 0); [lia|]. destruct (N.ltb_spec (in_size i) (len * 2)); lia. }
  exists (repeat (0, 0) (N.to_nat (ns - len))). split; [reflexivity|].
  unfold nlen. rewrite app_length, repeat_length. unfold len, nlen in *. lia.
Qed.

Lemma infl_grow_ok i : infl_ok i -> nlen (in_buffer i) < in_size i ->
  infl_ok (infl_grow i) /\ infl_window (infl_grow i) = infl_window i /\
  nlen (in_buffer i) < nlen (in_buffer (infl_grow i)).
Proof.
  intros (C & BL & S & A & P & BY) L. specialize (A L).
  destruct (grow_buffer i L) as (pad & E & B).
  assert (W : infl_window (infl_grow i) = infl_window i).
  { unfold infl_window. change (in_count (infl_grow i)) with (in_count i). change (in_start (infl_grow i)) with (in_start i).
    rewrite <- (wpos_0 i S). apply (window_loop_ext i S (infl_grow i) eq_refl); [lia|].
    intros q Q. unfold buf_at. rewrite E. apply app_nth1. specialize (P q). unfold nlen in P. lia. }
  split; [|split; [exact W|rewrite E; lia]].
  apply infl_ok_intro; rewrite ?W, ?E; try assumption; cbn [infl_grow in_start in_count in_size]; lia.
Qed.

Lemma infl_put_ok i x : infl_ok i -> in_count i < in_size i -> wpos i (in_count i) < nlen (in_buffer i) ->
  let i' := mkInfl (in_start i) (in_count i + 1) (in_bytes i + snd x) (in_size i) (in_maxbytes i)
                   (list_set (in_buffer i) (N.to_nat (wpos i (in_count i))) x) in
  infl_ok i' /\ infl_window i' = infl_window i ++ [x].
Proof.
  intros (C & BL & S & A & P & BY) CL NL i'.
  assert (W : infl_window i' = infl_window i ++ [x]).
  { unfold infl_window. change (in_count i') with (in_count i + 1). change (in_start i') with (in_start i).
    rewrite <- (wpos_0 i S).
    replace (N.to_nat (in_count i + 1)) with (N.to_nat (in_count i) + 1)%nat by lia.
    rewrite (window_loop_app i S i' eq_refl) by lia. f_equal.
    - apply (window_loop_ext i S i' eq_refl); [lia|]. intros q Q. apply nth_list_set_neq.
      intro X. apply N2Nat.inj in X. revert X. apply (wpos_inj i S); lia.
    - cbn [infl_window_loop]. f_equal.
      replace (0 + N.of_nat (N.to_nat (in_count i))) with (in_count i) by lia.
      apply nth_list_set_eq. unfold nlen in NL. lia. }
  assert (LB : nlen (in_buffer i') = nlen (in_buffer i)) by (unfold nlen; cbn; rewrite list_set_length; reflexivity).
  split; [|exact W].
  apply infl_ok_intro; rewrite ?W, ?sumb_app, ?LB; subst i'; cbn [in_count in_start in_size in_bytes sumb];
    [lia|exact BL|exact S| |lia].
  intros LT. specialize (A LT). rewrite wpos_small in NL by lia. lia.
Qed.

Lemma infl_add_window i idx b :
  infl_ok i -> infl_full i = false ->
  exists i', infl_add i idx b = Ok i' /\
    infl_ok i' /\ infl_window i' = infl_window i ++ [(idx, b)] /\ in_size i' = in_size i /\ in_maxbytes i' = in_maxbytes i.
Proof.
  intros O F. pose proof O as (C & BL & S & A & P & BY). unfold infl_add. rewrite F.
  assert (CL : in_count i < in_size i).
  { unfold infl_full in F. apply orb_false_iff in F. destruct F as [F _]. apply N.eqb_neq in F. lia. }
  change (if in_size i <=? in_start i + in_count i then in_start i + in_count i - in_size i else in_start i + in_count i)
    with (wpos i (in_count i)).
  pose proof (wpos_lt i S _ CL) as NLT. eexists. split; [reflexivity|].
  destruct (N.leb_spec (nlen (in_buffer i)) (wpos i (in_count i))) as [G|G].
  - destruct (infl_grow_ok i O ltac:(lia)) as (O1 & W1 & L1).
    pose proof (infl_put_ok (infl_grow i) (idx, b) O1 CL) as X. cbn zeta in X. rewrite W1 in X.
    destruct X as (O' & W').
    { change (wpos i (in_count i) < nlen (in_buffer (infl_grow i))).
      specialize (A ltac:(lia)). rewrite wpos_small in * by lia. lia. }
    auto.
  - destruct (infl_put_ok i (idx, b) O CL G) as (O' & W'). auto.
Qed.


Fixpoint cntle (to : N) (w : list (N * N)) : nat :=
  match w with
  | [] => O
  | e :: r => if to <? fst e then O else S (cntle to r)
  end.

Lemma cntle_le to w : (cntle to w <= length w)%nat.
Proof. induction w as [|e r IH]; cbn; [lia|]. destruct (to <? fst e); lia. Qed.

Lemma free_loop_spec i to : in_start i < in_size i \/ in_start i = 0 -> forall n k0 k bytes,
  k0 + N.of_nat n <= in_size i ->
  let w := infl_window_loop i n (wpos i k0) in
  free_loop i to n (wpos i k0) k bytes =
    (wpos i (k0 + N.of_nat (cntle to w)), k + N.of_nat (cntle to w), bytes + sumb (firstn (cntle to w) w)).
Proof.
  intros S. induction n as [|n IH]; intros k0 k bytes B; cbn zeta.
  - cbn. f_equal; [f_equal|]; try lia. f_equal. lia.
  - cbn [free_loop infl_window_loop cntle].
    destruct (to <? fst (buf_at i (wpos i k0))) eqn:T.
    + cbn [firstn sumb]. f_equal; [f_equal|]; try lia. f_equal. lia.
    + fold (wrap i (wpos i k0 + 1)). rewrite (wpos_add i S) by lia.
      rewrite IH by lia. cbn zeta. cbn [firstn sumb]. f_equal; [f_equal|]; try lia. f_equal. lia.
Qed.

Lemma sumb_split n w : sumb w = sumb (firstn n w) + sumb (skipn n w).
Proof. rewrite <- (firstn_skipn n w) at 1. apply sumb_app. Qed.

Lemma cntle_first to w : (forall e, In e (firstn (cntle to w) w) -> fst e <= to) /\
  (match skipn (cntle to w) w with [] => True | e :: _ => to < fst e end).
Proof.
  induction w as [|e r [IH1 IH2]]; cbn [cntle]; [split; [intros e []|exact I]|].
  destruct (N.ltb_spec to (fst e)).
  - split; [intros x []|cbn; assumption].
  - cbn [firstn skipn]. split; [|exact IH2]. intros x [<-|H']; [lia|apply IH1; exact H'].
Qed.

Lemma skipn_app_length {A} (a b : list A) n : length a = n -> skipn n (a ++ b) = b.
Proof. intros <-. rewrite skipn_app, skipn_all, Nat.sub_diag. reflexivity. Qed.

Lemma infl_drop_ok i f : infl_ok i -> N.of_nat f <= in_count i ->
  let cnt := in_count i - N.of_nat f in
  let i' := mkInfl (if N.eqb cnt 0 then 0 else wpos i (N.of_nat f)) cnt
                   (in_bytes i - sumb (firstn f (infl_window i))) (in_size i) (in_maxbytes i) (in_buffer i) in
  infl_ok i' /\ infl_window i' = skipn f (infl_window i).
Proof.
  intros (C & BL & S & A & P & BY) F cnt i'.
  assert (W : infl_window i' = skipn f (infl_window i)).
  { unfold infl_window. change (in_count i') with cnt.
    replace (N.to_nat (in_count i)) with (f + N.to_nat cnt)%nat by lia.
    rewrite <- (wpos_0 i S). rewrite (window_loop_app i S i eq_refl) by lia.
    rewrite skipn_app_length by apply window_loop_length.
    change (in_start i') with (if N.eqb cnt 0 then 0 else wpos i (N.of_nat f)).
    destruct (N.eqb_spec cnt 0) as [Z|NZ]; [rewrite Z; reflexivity|].
    apply (window_loop_ext i S i' eq_refl); [lia|]. intros q Q. reflexivity. }
  split; [|exact W].
  apply infl_ok_intro; rewrite ?W; subst i'; cbn [in_count in_start in_size in_bytes in_buffer]; [lia|exact BL| | |].
  - destruct (N.eqb_spec cnt 0); [right; reflexivity|left; apply (wpos_lt i S); lia].
  - intros LT. specialize (A LT). destruct (N.eqb_spec cnt 0); [lia|]. rewrite wpos_small by lia. lia.
  - rewrite BY, (sumb_split f (infl_window i)). lia.
Qed.

Theorem infl_free_le_window i to :
  infl_ok i ->
  let i' := infl_free_le i to in
  let f := cntle to (infl_window i) in
  infl_ok i' /\ infl_window i' = skipn f (infl_window i) /\ in_size i' = in_size i /\ in_maxbytes i' = in_maxbytes i.
Proof.
  intros O. pose proof O as (C & BL & S & A & P & BY). cbn zeta.
  unfold infl_free_le.
  destruct (N.eqb (in_count i) 0 || (to <? fst (buf_at i (in_start i)))) eqn:Q.
  { 
    assert (E : cntle to (infl_window i) = 0%nat).
    { unfold infl_window. destruct (N.to_nat (in_count i)) eqn:EC; [reflexivity|]. cbn [infl_window_loop cntle].
      apply orb_true_iff in Q. destruct Q as [Q|Q]; [apply N.eqb_eq in Q; lia|rewrite Q; reflexivity]. }
    rewrite E. auto. }
  pose proof (free_loop_spec i to S (N.to_nat (in_count i)) 0 0 0 ltac:(lia)) as FL. cbn zeta in FL.
  rewrite (wpos_0 i S) in FL. fold (infl_window i) in FL. rewrite FL.
  pose proof (cntle_le to (infl_window i)) as FLE. rewrite (window_length i) in FLE.
  destruct (infl_drop_ok i (cntle to (infl_window i)) O ltac:(lia)) as (O' & W').
  auto.
Qed.


Lemma infl_new_ok size mb : infl_ok (new_inflights size mb) /\ infl_window (new_inflights size mb) = [].
Proof.
  unfold infl_ok, new_inflights, infl_window; cbn. repeat split; try lia;
    try (destruct size; [right; reflexivity|left; lia]).
Qed.

Lemma infl_reset_ok i : infl_ok i -> infl_ok (infl_reset i) /\ infl_window (infl_reset i) = [] /\
  in_size (infl_reset i) = in_size i /\ in_maxbytes (infl_reset i) = in_maxbytes i.
Proof.
  intros (C & BL & S & A & P & BY). unfold infl_ok, infl_reset, infl_window; cbn. repeat split; try lia; auto;
    try (destruct (in_size i); [right; reflexivity|left; lia]).
Qed.

Definition afull (size mb : N) (w : list (N * N)) : bool :=
  N.eqb (nlen w) size || (negb (N.eqb mb 0) && (mb <=? sumb w)).

Lemma infl_full_window i : infl_ok i -> infl_full i = afull (in_size i) (in_maxbytes i) (infl_window i).
Proof.
  intros O. pose proof (window_length i) as WL. destruct O as (_ & _ & _ & _ & _ & BY).
  unfold infl_full, afull, nlen. rewrite WL, BY. f_equal. f_equal. lia.
Qed.


Inductive iop := IAdd (idx b : N) | IFree (to : N) | IReset.

Definition astep (size mb : N) (w : list (N * N)) (o : iop) : option (list (N * N)) :=
  match o with
  | IAdd idx b => if afull size mb w then None else Some (w ++ [(idx, b)])
  | IFree to => Some (skipn (cntle to w) w)
  | IReset => Some []
  end.

Definition cstep (i : inflights) (o : iop) : res inflights :=
  match o with
  | IAdd idx b => infl_add i idx b
  | IFree to => Ok (infl_free_le i to)
  | IReset => Ok (infl_reset i)
  end.

Lemma window_view i i' w :
  infl_ok i' /\ infl_window i' = w /\ in_size i' = in_size i /\ in_maxbytes i' = in_maxbytes i ->
  infl_ok i' /\ infl_window i' = w /\ in_size i' = in_size i /\ in_maxbytes i' = in_maxbytes i /\
  infl_count i' = nlen w /\ infl_full i' = afull (in_size i) (in_maxbytes i) w.
Proof.
  intros (O & W & SS & MM). refine (conj O (conj W (conj SS (conj MM _)))).
  rewrite (infl_full_window i' O), SS, MM, W. split; [|reflexivity].
  unfold infl_count, nlen. rewrite <- W, (window_length i'). lia.
Qed.

(* Inflights is the abstract window: Add panics exactly when the window is full (by count or by
   bytes), otherwise appends; FreeLE drops exactly the leading entries with index <= to; Count and
   Full are the window's length and fullness. *)
Theorem infl_refines i o :
  infl_ok i ->
  match cstep i o, astep (in_size i) (in_maxbytes i) (infl_window i) o with
  | Ok i', Some w' => infl_ok i' /\ infl_window i' = w' /\ in_size i' = in_size i /\ in_maxbytes i' = in_maxbytes i /\
                      infl_count i' = nlen w' /\ infl_full i' = afull (in_size i) (in_maxbytes i) w'
  | Panic _, None => True
  | _, _ => False
  end.
Proof.
  intros O. destruct o as [idx b|to|]; cbn [cstep astep].
  - rewrite <- (infl_full_window i O). destruct (infl_full i) eqn:F.
    + unfold infl_add. rewrite F. exact I.
    + destruct (infl_add_window i idx b O F) as (i' & -> & V). apply window_view, V.
  - apply window_view, infl_free_le_window, O.
  - apply window_view, infl_reset_ok, O.
Qed.


(* C16: never more than [size] messages in flight; with a byte limit, everything but the last message
   stays below it (the one message that crosses the limit) *)
Definition window_inv (size mb : N) (w : list (N * N)) : Prop :=
  nlen w <= size /\ (mb <> 0 -> sumb (removelast w) < mb \/ w = []).

Lemma sumb_removelast_le w : sumb (removelast w) <= sumb w.
Proof.
  induction w as [|e r IH]; [cbn; lia|]. destruct r as [|e2 r2]; [cbn; lia|].
  change (removelast (e :: e2 :: r2)) with (e :: removelast (e2 :: r2)). cbn [sumb] in *. lia.
Qed.

Lemma removelast_skipn {A} (w : list A) : forall k, (k < length w)%nat -> removelast (skipn k w) = skipn k (removelast w).
Proof.
  induction w as [|e r IH]; intros k H; [cbn in H; lia|].
  destruct k as [|k]; [reflexivity|]. cbn [skipn]. cbn [length] in H.
  destruct r as [|e2 r2]; [cbn in H; lia|].
  change (removelast (e :: e2 :: r2)) with (e :: removelast (e2 :: r2)). cbn [skipn]. apply IH. lia.
Qed.

Theorem window_inv_step size mb w o w' :
  window_inv size mb w -> astep size mb w o = Some w' -> window_inv size mb w'.
Proof.
  intros [L B] H. destruct o as [idx b|to|]; cbn [astep] in H.
  - destruct (afull size mb w) eqn:F; [discriminate|]. inversion H; subst w'; clear H.
    unfold afull in F. apply orb_false_iff in F. destruct F as [F1 F2]. apply N.eqb_neq in F1.
    split.
    + unfold nlen in *. rewrite app_length. cbn [length]. lia.
    + intros NZ. left. rewrite removelast_last.
      destruct (N.eqb_spec mb 0); [contradiction|]. cbn [negb andb] in F2. apply N.leb_gt in F2. exact F2.
  - inversion H; subst w'; clear H. split.
    + unfold nlen in *. rewrite skipn_length. lia.
    + intros NZ. destruct (Nat.lt_ge_cases (cntle to w) (length w)) as [Q|Q].
      * left. rewrite removelast_skipn by exact Q. destruct (B NZ) as [B1|B1]; [|subst w; cbn in Q; lia].
        rewrite (sumb_split (cntle to w) (removelast w)) in B1. lia.
      * right. apply skipn_all2. exact Q.
  - inversion H; subst w'. split; [unfold nlen; cbn; lia|intros _; right; reflexivity].
Qed.

Print Assumptions infl_refines.
Print Assumptions window_inv_step.
