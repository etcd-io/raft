(* Tactics.v: proof automation shared by the proofs over the node model. *)
From Coq Require Import List NArith Bool Lia.
From RaftV Require Import Base Types.

(* The successful branch of a [bind], as equations.  Destructing the first call and reducing the
   [bind] in the hypothesis leaves it to the kernel to compare [bind (Ok a) f] with [f a]; when [f a]
   is a call of a large model function it unfolds that call first, which takes seconds.  Applying
   this lemma involves no such conversion. *)
Lemma bind_ok {A B} (x : res A) (f : A -> res B) y : bind x f = Ok y -> exists a, x = Ok a /\ f a = Ok y.
Proof. destruct x as [a|]; [exists a; auto|discriminate]. Qed.

(* break an equation "monadic program = Ok x" into its successful branches *)
Ltac inv_ok_step :=
  match goal with
  | H : Ok _ = Ok _ |- _ => inversion H; subst; clear H
  | H : Panic _ = Ok _ |- _ => discriminate H
  | H : inl _ = inl _ |- _ => inversion H; subst; clear H
  | H : inr _ = inl _ |- _ => discriminate H
  | H : inl _ = inr _ |- _ => discriminate H
  | H : Some _ = Some _ |- _ => inversion H; subst; clear H
  | H : None = Some _ |- _ => discriminate H
  | H : Some _ = None |- _ => discriminate H
  | H : (_, _) = (_, _) |- _ => inversion H; subst; clear H
  | H : bind _ _ = Ok _ |- _ =>
      let E := fresh "E" in let a := fresh "a" in
      apply bind_ok in H; destruct H as (a & E & H); cbv beta in H
  | H : (let '(_, _) := ?x in _) = _ |- _ =>
      let E := fresh "E" in destruct x eqn:E
  | H : (if ?c then _ else _) = _ |- _ =>
      let E := fresh "E" in destruct c eqn:E
  | H : (match ?x with _ => _ end) = _ |- _ =>
      let E := fresh "E" in destruct x eqn:E
  end.

Ltac inv_ok := repeat inv_ok_step.

Ltac bool_to_prop :=
  repeat match goal with
  | H : (_ && _) = true |- _ => apply andb_true_iff in H; destruct H
  | H : (_ || _) = false |- _ => apply orb_false_iff in H; destruct H
  | H : (_ || _) = true |- _ => apply orb_true_iff in H; destruct H
  | H : (_ && _) = false |- _ => apply andb_false_iff in H; destruct H
  | H : negb _ = true |- _ => apply negb_true_iff in H
  | H : negb _ = false |- _ => apply negb_false_iff in H
  | H : N.eqb _ _ = true |- _ => apply N.eqb_eq in H
  | H : N.eqb _ _ = false |- _ => apply N.eqb_neq in H
  | H : N.ltb _ _ = true |- _ => apply N.ltb_lt in H
  | H : N.ltb _ _ = false |- _ => apply N.ltb_ge in H
  | H : N.leb _ _ = true |- _ => apply N.leb_le in H
  | H : N.leb _ _ = false |- _ => apply N.leb_gt in H
  end.
