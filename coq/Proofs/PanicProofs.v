(* PanicProofs.v: assertions of the library that no input can reach (C14), for every state and every
   message, tick, proposal and configuration change:
     - the flow-control assertions: Inflights.Add on a full window, Progress.SentEntries in
       StateSnapshot (maybeSendAppend asks IsPaused / Full first);
     - the invalid state transitions: leader -> candidate, leader -> pre-candidate,
       follower -> leader (hup returns early at a leader; stepCandidate is entered only as a
       candidate or pre-candidate);
     - unknown Progress state / unknown transition, and the recursion leaf of the model's nested
       Step (appliedTo's leave-joint proposal never reaches appliedTo again).
   [unr p] says that p is one of these sites; the theorems say that no function of the node model
   returns [Panic p] with [unr p = true].  The other panic sites are guarded by invariants that
   involve the application and the other nodes (log bounds, commit range, ...); those are the
   business of the monitors and of the well-formedness theorems of C18/C03. *)
From Coq Require Import List NArith Bool Lia.
From RaftV Require Import Base Types Quorum Progress Tracker Storage Log Raft RawNode Tactics.
Import ListNotations.
Open Scope N_scope.

Definition unr (p : panic_site) : bool :=
  match p with
  | PInflightsAddFull | PSentEntriesState | PIsPausedState | PUnknownTransition | PUnreachable
  | PLeaderToCandidate | PLeaderToPreCandidate | PFollowerToLeader => true
  | _ => false
  end.

(* break "monadic program = Panic p" into the failing sub-call *)
Ltac inv_panic_step :=
  match goal with
  | H : Panic _ = Panic _ |- _ => inversion H; subst; clear H
  | H : Ok _ = Panic _ |- _ => discriminate H
  | H : bind ?x _ = Panic _ |- _ =>
      let E := fresh "E" in destruct x eqn:E; cbn [bind] in H
  | H : (let '(_, _) := ?x in _) = Panic _ |- _ =>
      let E := fresh "E" in destruct x eqn:E
  | H : (if ?c then _ else _) = Panic _ |- _ =>
      let E := fresh "E" in destruct c eqn:E
  | H : (match ?x with _ => _ end) = Panic _ |- _ =>
      let E := fresh "E" in destruct x eqn:E
  end.
Ltac inv_panic := repeat inv_panic_step.

Create HintDb np.
Ltac np_done := first [ reflexivity | solve [eauto 2 with np] ].
Ltac np_auto := intros; inv_panic; np_done.

Lemma ms_entries_np s lo hi ms p : ms_entries s lo hi ms = Panic p -> unr p = false.
Proof. unfold ms_entries. np_auto. Qed.
#[export] Hint Resolve ms_entries_np : np.

Lemma u_slice_np u lo hi p : u_slice u lo hi = Panic p -> unr p = false.
Proof. unfold u_slice. np_auto. Qed.
#[export] Hint Resolve u_slice_np : np.

Lemma u_truncate_and_append_np u es p : u_truncate_and_append u es = Panic p -> unr p = false.
Proof. unfold u_truncate_and_append. np_auto. Qed.
#[export] Hint Resolve u_truncate_and_append_np : np.

Lemma l_last_entry_id_np st l p : l_last_entry_id st l = Panic p -> unr p = false.
Proof. unfold l_last_entry_id. np_auto. Qed.
#[export] Hint Resolve l_last_entry_id_np : np.

Lemma l_is_up_to_date_np st l t i p : l_is_up_to_date st l t i = Panic p -> unr p = false.
Proof. unfold l_is_up_to_date. np_auto. Qed.
#[export] Hint Resolve l_is_up_to_date_np : np.

Lemma l_commit_to_np st l c p : l_commit_to st l c = Panic p -> unr p = false.
Proof. unfold l_commit_to. np_auto. Qed.
#[export] Hint Resolve l_commit_to_np : np.

Lemma l_append_np st l es p : l_append st l es = Panic p -> unr p = false.
Proof. unfold l_append. np_auto. Qed.
#[export] Hint Resolve l_append_np : np.

Lemma l_maybe_append_np st l pi pt es c p : l_maybe_append st l pi pt es c = Panic p -> unr p = false.
Proof. unfold l_maybe_append. np_auto. Qed.
#[export] Hint Resolve l_maybe_append_np : np.

Lemma l_must_check_np st l lo hi p : l_must_check_out_of_bounds st l lo hi = Panic p -> unr p = false.
Proof. unfold l_must_check_out_of_bounds. np_auto. Qed.
#[export] Hint Resolve l_must_check_np : np.

Lemma l_slice_np st l lo hi ms p : l_slice st l lo hi ms = Panic p -> unr p = false.
Proof. unfold l_slice. np_auto. Qed.
#[export] Hint Resolve l_slice_np : np.

Lemma l_entries_np st l i ms p : l_entries st l i ms = Panic p -> unr p = false.
Proof. unfold l_entries. np_auto. Qed.
#[export] Hint Resolve l_entries_np : np.

Lemma l_next_committed_ents_np st l a p : l_next_committed_ents st l a = Panic p -> unr p = false.
Proof. unfold l_next_committed_ents. np_auto. Qed.
#[export] Hint Resolve l_next_committed_ents_np : np.

Lemma l_applied_to_np l i s p : l_applied_to l i s = Panic p -> unr p = false.
Proof. unfold l_applied_to. np_auto. Qed.
#[export] Hint Resolve l_applied_to_np : np.

Lemma l_accept_applying_np l i s a p : l_accept_applying l i s a = Panic p -> unr p = false.
Proof. unfold l_accept_applying. np_auto. Qed.
#[export] Hint Resolve l_accept_applying_np : np.

Lemma l_maybe_commit_np st l t i p : l_maybe_commit st l t i = Panic p -> unr p = false.
Proof. unfold l_maybe_commit. np_auto. Qed.
#[export] Hint Resolve l_maybe_commit_np : np.

Lemma ro_recv_ack_np ro f c p : ro_recv_ack ro f c = Panic p -> unr p = false.
Proof. unfold ro_recv_ack. np_auto. Qed.
#[export] Hint Resolve ro_recv_ack_np : np.

Lemma ro_maybe_advance_np ro c0 c1 p : ro_maybe_advance ro c0 c1 = Panic p -> unr p = false.
Proof. unfold ro_maybe_advance. np_auto. Qed.
#[export] Hint Resolve ro_maybe_advance_np : np.

Lemma send_np r m p : send r m = Panic p -> unr p = false.
Proof. unfold send. np_auto. Qed.
#[export] Hint Resolve send_np : np.

Lemma pr_sent_entries_no_panic pr n b p :
  pr_state_ pr <> StateSnapshot ->
  (pr_state_ pr = StateReplicate -> 0 < n -> infl_full (pr_inflights pr) = false) ->
  pr_sent_entries pr n b = Panic p -> False.
Proof.
  unfold pr_sent_entries. intros NS NF H. destruct (pr_state_ pr) eqn:ST.
  - discriminate.
  - destruct (0 <? n) eqn:E0.
    + apply N.ltb_lt in E0. unfold infl_add in H. rewrite (NF eq_refl E0) in H. cbn [bind] in H. discriminate.
    + cbn [bind] in H. discriminate.
  - congruence.
Qed.

Section WithStorage.
Variable st : memstorage.

Lemma maybe_send_snapshot_np r to pr p : maybe_send_snapshot st r to pr = Panic p -> unr p = false.
Proof. unfold maybe_send_snapshot. np_auto. Qed.
Hint Resolve maybe_send_snapshot_np : np.

Lemma maybe_send_append_np r to sie p : maybe_send_append st r to sie = Panic p -> unr p = false.
Proof.
  unfold maybe_send_append. intros H.
  destruct (get_progress r to) as [pr|]; [|inversion H; reflexivity].
  destruct (pr_is_paused pr) eqn:PA; [discriminate|].
  assert (NS : pr_state_ pr <> StateSnapshot).
  { intros ST. unfold pr_is_paused in PA. rewrite ST in PA. discriminate. }
  destruct (l_term st (r_log r) (pr_prev (pr_next pr))) as [pt [| | | | | | |]];
    try (eapply maybe_send_snapshot_np; exact H).
  match type of H with bind ?x _ = _ => destruct x as [[ents e]|s] eqn:EE; cbn [bind] in H end.
  - destruct (N.eqb (nlen ents) 0 && negb sie); [discriminate|].
    destruct e; try (eapply maybe_send_snapshot_np; exact H).
    match type of H with bind ?x _ = _ => destruct x as [r1|s] eqn:E1; cbn [bind] in H end.
    + match type of H with bind ?x _ = _ => destruct x as [p1|s] eqn:E2; cbn [bind] in H end; [discriminate|].
      exfalso. eapply pr_sent_entries_no_panic; [exact NS| |exact E2].
      intros SR LT. destruct (infl_full (pr_inflights pr)) eqn:F; [|reflexivity].
      rewrite SR in EE. cbn in EE. inversion EE; subst. cbn in LT. lia.
    + inversion H; subst. eapply send_np; eassumption.
  - inversion H; subst. destruct (negb _ || negb _); [eapply l_entries_np; eassumption|discriminate].
Qed.
Hint Resolve maybe_send_append_np : np.

Lemma send_append_np r to p : send_append st r to = Panic p -> unr p = false.
Proof. unfold send_append. np_auto. Qed.
Hint Resolve send_append_np : np.

Lemma send_heartbeat_np r to ctx p : send_heartbeat r to ctx = Panic p -> unr p = false.
Proof. unfold send_heartbeat. np_auto. Qed.
Hint Resolve send_heartbeat_np : np.

Lemma visit_others_np (f : raft -> N -> res raft) :
  (forall r id p, f r id = Panic p -> unr p = false) ->
  forall ids r p, visit_others f r ids = Panic p -> unr p = false.
Proof.
  intros Hf ids. induction ids as [|id ids IH]; intros r p H; cbn in H; [discriminate|].
  destruct (N.eqb id (r_id r)); [eapply IH; exact H|].
  destruct (f r id) as [r1|s] eqn:E; cbn [bind] in H.
  - eapply IH; exact H.
  - inversion H; subst. eapply Hf; exact E.
Qed.

Lemma bcast_append_np r p : bcast_append st r = Panic p -> unr p = false.
Proof. unfold bcast_append. apply visit_others_np. intros; eapply send_append_np; eassumption. Qed.
Hint Resolve bcast_append_np : np.

Lemma bcast_heartbeat_ctx_np r ctx p : bcast_heartbeat_with_ctx r ctx = Panic p -> unr p = false.
Proof. unfold bcast_heartbeat_with_ctx. apply visit_others_np. intros; eapply send_heartbeat_np; eassumption. Qed.
Hint Resolve bcast_heartbeat_ctx_np : np.

Lemma bcast_heartbeat_np r p : bcast_heartbeat r = Panic p -> unr p = false.
Proof. unfold bcast_heartbeat. apply bcast_heartbeat_ctx_np. Qed.
Hint Resolve bcast_heartbeat_np : np.

Lemma maybe_commit_np r p : maybe_commit st r = Panic p -> unr p = false.
Proof. unfold maybe_commit. np_auto. Qed.
Hint Resolve maybe_commit_np : np.

Lemma reset_randomized_np r p : reset_randomized r = Panic p -> unr p = false.
Proof. unfold reset_randomized. np_auto. Qed.
Hint Resolve reset_randomized_np : np.

Lemma reset_np r t p : reset st r t = Panic p -> unr p = false.
Proof. unfold reset. np_auto. Qed.
Hint Resolve reset_np : np.

Lemma append_entry_np r es p : append_entry st r es = Panic p -> unr p = false.
Proof. unfold append_entry. np_auto. Qed.
Hint Resolve append_entry_np : np.

Lemma become_follower_np r t l p : become_follower st r t l = Panic p -> unr p = false.
Proof. unfold become_follower. np_auto. Qed.
Hint Resolve become_follower_np : np.

(* the transitions that carry an assertion need to know the role they start from *)
Lemma become_candidate_np r p :
  r_state r <> StateLeader -> become_candidate st r = Panic p -> unr p = false.
Proof.
  unfold become_candidate. intros NL H.
  destruct (state_type_eqb (r_state r) StateLeader) eqn:E; [destruct (r_state r); try discriminate E; congruence|].
  inv_panic; np_done.
Qed.

Lemma become_pre_candidate_np r p :
  r_state r <> StateLeader -> become_pre_candidate r = Panic p -> unr p = false.
Proof.
  unfold become_pre_candidate. intros NL H.
  destruct (state_type_eqb (r_state r) StateLeader) eqn:E; [destruct (r_state r); try discriminate E; congruence|].
  discriminate.
Qed.

Lemma become_leader_np r p :
  r_state r <> StateFollower -> become_leader st r = Panic p -> unr p = false.
Proof.
  unfold become_leader. intros NF H.
  destruct (state_type_eqb (r_state r) StateFollower) eqn:E; [destruct (r_state r); try discriminate E; congruence|].
  inv_panic; np_done.
Qed.

Lemma campaign_send_np ids : forall r vm term lt li ctx p,
  campaign_send r ids vm term lt li ctx = Panic p -> unr p = false.
Proof.
  induction ids as [|id ids IH]; intros r vm term lt li ctx p H; cbn in H; [discriminate|].
  match type of H with bind ?x _ = _ => destruct x as [r1|s] eqn:E1; cbn [bind] in H end.
  - eapply IH; exact H.
  - inversion H; subst. destruct (N.eqb id (r_id r)); eapply send_np; eassumption.
Qed.
Hint Resolve campaign_send_np : np.

Lemma campaign_np r t p : r_state r <> StateLeader -> campaign st r t = Panic p -> unr p = false.
Proof.
  unfold campaign. intros NL H.
  match type of H with bind ?x _ = _ => destruct x as [[[r1 vm] term]|s] eqn:E1; cbn [bind] in H end.
  - inv_panic; np_done.
  - inversion H; subst. destruct t; inv_panic;
      first [ eapply become_pre_candidate_np; eassumption | eapply become_candidate_np; eassumption ].
Qed.

Lemma l_scan_exists_np l fuel : forall lo hi ps f p,
  l_scan_exists st l fuel lo hi ps f = Panic p -> unr p = false.
Proof.
  induction fuel as [|fu IH]; intros lo hi ps f p H; cbn in H.
  - inv_panic; np_done.
  - inv_panic; try np_done; try (eapply IH; eassumption).
Qed.

Lemma has_unapplied_np r p : has_unapplied_conf_changes st r = Panic p -> unr p = false.
Proof.
  unfold has_unapplied_conf_changes. intros H. destruct (_ <=? _); [discriminate|].
  eapply l_scan_exists_np; exact H.
Qed.
Hint Resolve has_unapplied_np : np.

Lemma hup_np r t p : hup st r t = Panic p -> unr p = false.
Proof.
  unfold hup. intros H.
  destruct (state_type_eqb (r_state r) StateLeader) eqn:E; [discriminate|].
  assert (NL : r_state r <> StateLeader) by (intros X; rewrite X in E; discriminate).
  inv_panic; try np_done. eapply campaign_np; eassumption.
Qed.
Hint Resolve hup_np : np.


Lemma handle_append_entries_np r m p : handle_append_entries st r m = Panic p -> unr p = false.
Proof. unfold handle_append_entries. np_auto. Qed.
Hint Resolve handle_append_entries_np : np.

Lemma handle_heartbeat_np r m p : handle_heartbeat st r m = Panic p -> unr p = false.
Proof. unfold handle_heartbeat. np_auto. Qed.
Hint Resolve handle_heartbeat_np : np.

Lemma visit_maybe_send_np ids : forall r p, visit_maybe_send st r ids = Panic p -> unr p = false.
Proof.
  induction ids as [|id ids IH]; intros r p H; cbn in H; [discriminate|].
  destruct (N.eqb id (r_id r)); [eapply IH; exact H|].
  destruct (maybe_send_append st r id false) as [x|s] eqn:E; cbn [bind] in H.
  - eapply IH; exact H.
  - inversion H; subst. eapply maybe_send_append_np; exact E.
Qed.
Hint Resolve visit_maybe_send_np : np.

Lemma switch_to_config_np r cfg pm p : switch_to_config st r cfg pm = Panic p -> unr p = false.
Proof. unfold switch_to_config. np_auto. Qed.
Hint Resolve switch_to_config_np : np.

Lemma restore_np r s p : restore st r s = Panic p -> unr p = false.
Proof. unfold restore. np_auto. Qed.
Hint Resolve restore_np : np.

Lemma handle_snapshot_np r m p : handle_snapshot st r m = Panic p -> unr p = false.
Proof. unfold handle_snapshot. np_auto. Qed.
Hint Resolve handle_snapshot_np : np.

Lemma apply_conf_change_raft_np r cc p : apply_conf_change_raft st r cc = Panic p -> unr p = false.
Proof. unfold apply_conf_change_raft. np_auto. Qed.
Hint Resolve apply_conf_change_raft_np : np.

Lemma respond_read_index_np r req i p : respond_read_index r req i = Panic p -> unr p = false.
Proof. unfold respond_read_index, response_to_read_index_req. np_auto. Qed.
Hint Resolve respond_read_index_np : np.

Lemma send_msg_read_index_response_np r m p : send_msg_read_index_response r m = Panic p -> unr p = false.
Proof. unfold send_msg_read_index_response. np_auto. Qed.
Hint Resolve send_msg_read_index_response_np : np.

Lemma send_read_index_responses_np ms : forall r p, send_read_index_responses r ms = Panic p -> unr p = false.
Proof.
  induction ms as [|m ms IH]; intros r p H; cbn in H; [discriminate|].
  destruct (send_msg_read_index_response r m) as [r1|s] eqn:E; cbn [bind] in H.
  - eapply IH; exact H.
  - inversion H; subst. eapply send_msg_read_index_response_np; exact E.
Qed.
Hint Resolve send_read_index_responses_np : np.

Lemma release_pending_read_index_np r p : release_pending_read_index st r = Panic p -> unr p = false.
Proof. unfold release_pending_read_index. np_auto. Qed.
Hint Resolve release_pending_read_index_np : np.

Lemma send_timeout_now_np r to p : send_timeout_now r to = Panic p -> unr p = false.
Proof. unfold send_timeout_now. apply send_np. Qed.
Hint Resolve send_timeout_now_np : np.

Lemma send_append_loop_np fuel : forall r to p, send_append_loop st fuel r to = Panic p -> unr p = false.
Proof.
  induction fuel as [|f IH]; intros r to p H; cbn in H; [inversion H; reflexivity|].
  destruct (maybe_send_append st r to false) as [[r1 b]|s] eqn:E; cbn [bind] in H.
  - cbn [fst snd] in H. destruct b; [eapply IH; exact H|discriminate].
  - inversion H; subst. eapply maybe_send_append_np; exact E.
Qed.
Hint Resolve send_append_loop_np : np.

Lemma respond_reads_np rss : forall r p, respond_reads r rss = Panic p -> unr p = false.
Proof.
  induction rss as [|[req idx] rss IH]; intros r p H; cbn in H; [discriminate|].
  destruct (respond_read_index r req idx) as [r1|s] eqn:E; cbn [bind] in H.
  - eapply IH; exact H.
  - inversion H; subst. eapply respond_read_index_np; exact E.
Qed.
Hint Resolve respond_reads_np : np.

Lemma step_leader_np r m p : step_leader st r m = Panic p -> unr p = false.
Proof. unfold step_leader. np_auto. Qed.
Hint Resolve step_leader_np : np.

Lemma step_follower_np r m p : step_follower st r m = Panic p -> unr p = false.
Proof. unfold step_follower. np_auto. Qed.
Hint Resolve step_follower_np : np.

Lemma poll_state r id v r' res : poll r id v = (r', res) -> r_state r' = r_state r.
Proof. unfold poll. intros H. inversion H; reflexivity. Qed.

(* stepCandidate is entered as a candidate or a pre-candidate *)
Lemma step_candidate_np r m p :
  r_state r = StateCandidate \/ r_state r = StatePreCandidate ->
  step_candidate st r m = Panic p -> unr p = false.
Proof.
  unfold step_candidate. intros RS H.
  (* with the role decided, the only message that is not handed on or ignored is the answer to the
     own campaign *)
  destruct (state_type_eqb (r_state r) StatePreCandidate) eqn:PC.
  all: destruct (m_type m); try discriminate H;
    try (match type of H with bind (become_follower _ _ _ _) _ = _ => inv_panic; np_done end).
  all: destruct (msg_type_eqb _ _) eqn:EQ; [|discriminate H]; try discriminate EQ; clear EQ.
  all: cbn [andb] in H; try (destruct (_ && _); [discriminate H|]).
  all: destruct (poll r (m_from m) (negb (m_reject m))) as [r1 res] eqn:EP.
  all: apply poll_state in EP; destruct res; try discriminate H.
  all: try (inv_panic; np_done).
  - (* a pre-candidate that won campaigns *)
    rewrite EP, PC in H. inv_panic; try np_done. eapply campaign_np; [|eassumption].
    rewrite EP. destruct RS as [RS|RS]; rewrite RS; discriminate.
  - (* a candidate that won leads *)
    rewrite EP, PC in H. destruct (alookup _ _) as [[|]|]; try discriminate H.
    inv_panic; try np_done. eapply become_leader_np; [|eassumption].
    rewrite EP. destruct RS as [RS|RS]; rewrite RS; discriminate.
Qed.

Lemma step_role_np r m p :
  match r_state r with
  | StateFollower => step_follower st r m
  | StateCandidate | StatePreCandidate => step_candidate st r m
  | StateLeader => step_leader st r m
  end = Panic p -> unr p = false.
Proof.
  destruct (r_state r) eqn:RS; intros H.
  - eapply step_follower_np; exact H.
  - eapply step_candidate_np; [left; exact RS|exact H].
  - eapply step_leader_np; exact H.
  - eapply step_candidate_np; [right; exact RS|exact H].
Qed.
Hint Resolve step_role_np : np.

Section StepGen.
Variable step_rec : raft -> message -> res (raft * err).
Hypothesis step_rec_np : forall r p, step_rec r leave_joint_prop = Panic p -> unr p = false.

Lemma applied_to_np r i s p : applied_to step_rec r i s = Panic p -> unr p = false.
Proof. unfold applied_to. intros H. inv_panic; try np_done; try (eapply step_rec_np; eassumption). Qed.

Lemma applied_snap_np r s p : applied_snap step_rec r s = Panic p -> unr p = false.
Proof. unfold applied_snap. apply applied_to_np. Qed.

Lemma step_preamble_np r m p : step_preamble st step_rec r m = Panic p -> unr p = false.
Proof.
  unfold step_preamble. intros H. inv_panic; try np_done.
  all: eapply applied_snap_np; eassumption.
Qed.

Lemma step_transfer_leader_np r m p : step_transfer_leader st step_rec r m = Panic p -> unr p = false.
Proof.
  unfold step_transfer_leader. intros H.
  match type of H with bind ?y _ = _ => destruct y as [x|s] eqn:E1; cbn [bind] in H end.
  - inv_panic; try np_done; try (eapply applied_to_np; eassumption).
  - inversion H; subst. eapply step_role_np; exact E1.
Qed.

Lemma step_dispatch_np r m p : step_dispatch st step_rec r m = Panic p -> unr p = false.
Proof.
  unfold step_dispatch. intros H.
  destruct (m_type m) eqn:TY; try (eapply step_role_np; exact H).
  all: try (eapply step_transfer_leader_np; exact H).
  all: inv_panic; try np_done.
  all: first [eapply applied_snap_np; eassumption | eapply applied_to_np; eassumption].
Qed.

Lemma step_gen_np r m p : step_gen st step_rec r m = Panic p -> unr p = false.
Proof.
  unfold step_gen. intros H.
  destruct (step_preamble st step_rec r m) as [[r1 c]|s] eqn:EP; cbn [bind] in H.
  - destruct (negb c); [discriminate|]. eapply step_dispatch_np; exact H.
  - inversion H; subst. eapply step_preamble_np; exact EP.
Qed.
End StepGen.

(* the nested Step carries the leave-joint proposal: it goes to the role's handler and never reaches
   appliedTo, hence never the recursion leaf *)
Lemma step_inner_leave_np r p : step_inner st r leave_joint_prop = Panic p -> unr p = false.
Proof.
  unfold step_inner, step_gen, step_preamble. cbn [m_term leave_joint_prop N.eqb bind negb].
  unfold step_dispatch. cbn [m_type leave_joint_prop]. apply step_role_np.
Qed.

(* Step, for every state and every message of any type, term and content: none of the assertions
   listed at the top fires *)
Theorem step_np r m p : step st r m = Panic p -> unr p = false.
Proof. unfold step. apply step_gen_np. exact step_inner_leave_np. Qed.
Hint Resolve step_np : np.

Lemma applied_to_top_np r i s p : applied_to_top st r i s = Panic p -> unr p = false.
Proof. unfold applied_to_top. apply applied_to_np. exact step_inner_leave_np. Qed.
Hint Resolve applied_to_top_np : np.

Lemma tick_election_np r p : tick_election st r = Panic p -> unr p = false.
Proof. unfold tick_election. np_auto. Qed.

Lemma tick_heartbeat_np r p : tick_heartbeat st r = Panic p -> unr p = false.
Proof. unfold tick_heartbeat. cbv beta zeta. np_auto. Qed.

Theorem tick_np r p : tick st r = Panic p -> unr p = false.
Proof. unfold tick. destruct (r_state r); first [apply tick_election_np | apply tick_heartbeat_np]. Qed.

End WithStorage.

Lemma ms_append_np s es p : ms_append s es = Panic p -> unr p = false.
Proof. unfold ms_append. np_auto. Qed.
Lemma ms_create_snapshot_np s i cs d p : ms_create_snapshot s i cs d = Panic p -> unr p = false.
Proof. unfold ms_create_snapshot. np_auto. Qed.
Lemma ms_compact_np s i p : ms_compact s i = Panic p -> unr p = false.
Proof. unfold ms_compact. np_auto. Qed.
#[export] Hint Resolve ms_append_np ms_create_snapshot_np ms_compact_np : np.

#[export] Hint Resolve step_np tick_np apply_conf_change_raft_np become_follower_np switch_to_config_np
  l_last_entry_id_np : np.

Lemma load_state_np st r h p : load_state st r h = Panic p -> unr p = false.
Proof. unfold load_state. np_auto. Qed.
#[export] Hint Resolve load_state_np : np.

Lemma new_raft_np st c d p : new_raft st c d = Panic p -> unr p = false.
Proof. unfold new_raft. np_auto. Qed.
#[export] Hint Resolve new_raft_np : np.

Lemma new_rawnode_np st c d p : new_rawnode st c d = Panic p -> unr p = false.
Proof. unfold new_rawnode. np_auto. Qed.

Lemma storage_append_resp_np st r s p : storage_append_resp st r s = Panic p -> unr p = false.
Proof. unfold storage_append_resp. np_auto. Qed.
#[export] Hint Resolve storage_append_resp_np : np.

Lemma ready_without_accept_np st rn p : ready_without_accept st rn = Panic p -> unr p = false.
Proof. unfold ready_without_accept. cbv zeta. np_auto. Qed.

Lemma accept_ready_np st rn rd p : accept_ready st rn rd = Panic p -> unr p = false.
Proof. unfold accept_ready. cbv zeta. np_auto. Qed.

Lemma step_all_np st ms : forall r p, step_all st r ms = Panic p -> unr p = false.
Proof.
  induction ms as [|m ms IH]; intros r p H; cbn in H; [discriminate|].
  destruct (step st r m) as [x|s] eqn:E; cbn [bind] in H.
  - eapply IH; exact H.
  - inversion H; subst. eapply step_np; exact E.
Qed.

(* whatever is done to a node through the RawNode API and its storage, in any state: none of the
   assertions listed at the top fires *)
Theorem node_step_np n i d p : node_step n i d = Panic p -> unr p = false.
Proof.
  unfold node_step. intros H.
  destruct i; try (destruct (n_rn n) as [rn|]; [|discriminate]).
  all: unfold rn_tick, rn_campaign, rn_propose, rn_propose_cc, rn_apply_conf_change, rn_step, rn_ready,
         rn_advance, rn_report_unreachable, rn_report_snapshot, rn_transfer_leader, rn_forget_leader,
         rn_read_index, rn_raft_step in H.
  all: inv_panic; try np_done.
  all: first [ eapply new_rawnode_np; eassumption
             | eapply ready_without_accept_np; eassumption
             | eapply accept_ready_np; eassumption
             | eapply step_all_np; eassumption ].
Qed.
