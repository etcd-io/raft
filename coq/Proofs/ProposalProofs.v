(* ProposalProofs.v: what a proposal does to the log of the node that receives it (C20).
   At a leader an accepted MsgProp extends the logical log at its end by exactly the proposal's
   entries, in order, stamped with the leader's term and consecutive indexes, type and payload
   untouched, except that a configuration change the gate refuses is replaced by an empty normal
   entry; a proposal reported as dropped leaves the log exactly as it was, at a leader, a candidate
   and a follower alike (a follower forwards or drops, C20_follower_forwards_or_drops).  The only
   entry a node adds on its own when it becomes leader is one empty entry.
   At the end: the follower's commit index after an accepted MsgApp (C06) and the snapshot a leader
   sends (C09), each a fact about one function. *)
From Coq Require Import List NArith Bool Lia.
From RaftV Require Import Base Types Quorum Progress Tracker Storage Log Raft RawNode Tactics
     RaftSteps RaftRouting LocalProofs LogProofs AppendRefine.
Import ListNotations.
Open Scope N_scope.

Definition same_log (r r' : raft) : Prop := r_log r' = r_log r.

Lemma same_log_refl r : same_log r r.
Proof. reflexivity. Qed.

Lemma emits_log r r' : emits r r' -> same_log r r'.
Proof. intros H. apply (emits_keeps _ _ H). Qed.

Section WithStorage.
Variable st : memstorage.

Definition neutral : entry := mkEntry 0 0 EntryNormal true [] false false.
Definition gated (e e' : entry) : Prop := e' = e \/ (is_cc_type (e_type e) = true /\ e' = neutral).

Lemma prop_gate_shape es : forall r li i r' es',
  prop_gate r li i es = (r', es') -> same_log r r' /\ r_term r' = r_term r /\ Forall2 gated es es'.
Proof.
  induction es as [|e es IH]; intros r li i r' es' H; cbn in H.
  - inversion H; subst. repeat split. constructor.
  - (* the rest goes through the gate from [r] or from [r] with pendingConfIndex moved *)
    assert (G : forall r0 e', r_log r0 = r_log r -> r_term r0 = r_term r -> gated e e' ->
                (let '(r1, es1) := prop_gate r0 li (i + 1) es in (r1, e' :: es1)) = (r', es') ->
                same_log r r' /\ r_term r' = r_term r /\ Forall2 gated (e :: es) es').
    { intros r0 e' L T G H0. destruct (prop_gate r0 li (i + 1) es) as [r1 es1] eqn:E.
      apply IH in E. destruct E as (L1 & T1 & F). inversion H0; subst. unfold same_log in *.
      repeat split; try congruence. constructor; assumption. }
    destruct (is_cc_type (e_type e)) eqn:CC; [destruct (_ && _)|]; revert H; apply G; try reflexivity;
      [right; auto|left; reflexivity|left; reflexivity].
Qed.

Lemma stamp_contig term es : forall next, contig next (stamp term next es).
Proof.
  induction es as [|e es IH]; intros next; cbn; [exact I|]. split; [reflexivity|apply IH].
Qed.

Definition extended (a : abslog) (es : list entry) : abslog :=
  mkAbs (a_base a) (a_base_term a) (a_ents a ++ es).

Theorem append_entry_view r es r' ok :
  l_wf st (r_log r) -> es <> [] ->
  append_entry st r es = Ok (r', ok) ->
  if ok
  then l_wf st (r_log r') /\ r_term r' = r_term r /\
       lview st (r_log r') = extended (lview st (r_log r)) (stamp (r_term r) (last_index st r + 1) es)
  else r' = r.
Proof.
  intros W NE H. apply append_entry_ok in H. destruct ok; [|exact H].
  destruct H as (u & l & a & EL & E1).
  assert (L1 : r_log r' = l /\ r_term r' = r_term r).
  { destruct (send_keeps _ _ _ E1) as [K|K]; rewrite K; auto. }
  destruct L1 as [L1 T1]. rewrite L1.
  destruct es as [|e0 es0]; [congruence|].
  assert (LI : last_index st r + 1 = a_last (lview st (r_log r)) + 1).
  { unfold last_index. rewrite (lview_last _ _ W). reflexivity. }
  destruct (l_append_end_view st (r_log r) (stamp _ _ (e0 :: es0)) l _ _ W eq_refl (stamp_contig _ _ _) LI EL) as [W' V].
  split; [exact W'|]. split; [exact T1|]. rewrite V. reflexivity.
Qed.

Theorem leader_propose r m r' e :
  m_type m = MsgProp -> l_wf st (r_log r) ->
  step_leader st r m = Ok (r', e) ->
  (e = ErrProposalDropped /\ same_log r r') \/
  (e = ENone /\ l_wf st (r_log r') /\
   exists es', Forall2 gated (m_entries m) es' /\
     lview st (r_log r') = extended (lview st (r_log r)) (stamp (r_term r) (last_index st r + 1) es')).
Proof.
  intros TY W H. unfold step_leader in H. rewrite TY in H.
  destruct (m_entries m) as [|e0 es] eqn:EM; [discriminate|].
  destruct (get_progress r (r_id r)); [|inversion H; subst; left; split; reflexivity].
  destruct (negb _); [inversion H; subst; left; split; reflexivity|].
  destruct (prop_gate r (last_index st r) 0 (e0 :: es)) as [r1 es1] eqn:EG.
  apply prop_gate_shape in EG. destruct EG as (L1 & T1 & F).
  destruct (append_entry st r1 es1) as [[r2 ok]|] eqn:EA; cbn [bind] in H; [|discriminate].
  cbn [fst snd] in H.
  assert (NE : es1 <> []) by (inversion F; subst; discriminate).
  assert (W1 : l_wf st (r_log r1)) by (rewrite L1; exact W).
  pose proof (append_entry_view _ _ _ _ W1 NE EA) as V.
  destruct ok; cbn [negb] in H.
  - destruct (bcast_append st r2) as [r3|] eqn:EB; cbn [bind] in H; [|discriminate].
    inversion H; subst; clear H. apply bcast_append_emits, emits_log in EB. right.
    destruct V as (W2 & T2 & V2). rewrite EB. split; [reflexivity|]. split; [exact W2|].
    exists es1. split; [exact F|]. rewrite V2. unfold last_index. rewrite L1, T1. reflexivity.
  - inversion H; subst r' e; clear H. left. split; [reflexivity|]. rewrite V. exact L1.
Qed.

(* Propose / ProposeConfChange through Step, in any role: the log is extended by the gated, stamped
   entries of the proposal, or left exactly as it was *)
Theorem step_propose r m r' e :
  m_type m = MsgProp -> m_term m = 0 -> l_wf st (r_log r) ->
  step st r m = Ok (r', e) ->
  same_log r r' \/
  (r_state r = StateLeader /\ e = ENone /\ l_wf st (r_log r') /\
   exists es', Forall2 gated (m_entries m) es' /\
     lview st (r_log r') = extended (lview st (r_log r)) (stamp (r_term r) (last_index st r + 1) es')).
Proof.
  intros TY TZ W H. rewrite (step_local _ _ _ TZ) in H.
  unfold step_dispatch in H. rewrite TY in H.
  destruct (r_state r) eqn:SR.
  - left. destruct (follower_prop _ _ _ _ _ TY H) as [[_ ->]|(_ & _ & ->)]; reflexivity.
  - left. apply candidate_drops_proposals in H; [|exact TY]. destruct H as [_ H]. subst. reflexivity.
  - destruct (leader_propose _ _ _ _ TY W H) as [[_ L]|(E & W' & X)]; [left; exact L|right; auto].
  - left. apply candidate_drops_proposals in H; [|exact TY]. destruct H as [_ H]. subst. reflexivity.
Qed.

(* becoming leader adds exactly one entry of its own to the log: an empty normal entry of the new
   leader's term right after the last index *)
Theorem become_leader_view r r' :
  l_wf st (r_log r) -> become_leader st r = Ok r' ->
  l_wf st (r_log r') /\
  lview st (r_log r') =
    extended (lview st (r_log r)) [mkEntry (r_term r) (last_index st r + 1) EntryNormal false [] false false].
Proof.
  intros W H. destruct (become_leader_ok _ _ _ H) as (r1 & pr & ER & EA).
  destruct (reset_eq _ _ _ _ ER) as (d & ds & _ & EQ).
  apply append_entry_view in EA; [|rewrite EQ; exact W|discriminate].
  destruct EA as (W' & _ & V). split; [exact W'|]. rewrite V, EQ. reflexivity.
Qed.

End WithStorage.

Lemma l_commit_to_max st l c l' :
  l_commit_to st l c = Ok l' -> l_committed l' = N.max (l_committed l) c.
Proof.
  unfold l_commit_to. intros H. destruct (l_committed l <? c) eqn:E.
  - destruct (_ <? _) in H; [discriminate|]. inversion H; subst. cbn. apply N.ltb_lt in E. lia.
  - inversion H; subst. apply N.ltb_ge in E. lia.
Qed.

(* C06: an accepted MsgApp moves the follower's commit index to min(leader's commit, end of the matched
   prefix) and no further: never beyond what the leader says is committed, never beyond the part of
   the log that the message proved equal to the leader's *)
Theorem follower_commit_clamped st l pi pt ents c l' last :
  l_maybe_append st l pi pt ents c = Ok (l', Some last) ->
  last = pi + nlen ents /\
  l_committed l' = N.max (l_committed l) (N.min c (pi + nlen ents)).
Proof.
  unfold l_maybe_append. intros H.
  destruct (negb _); [discriminate|].
  match type of H with bind ?x _ = _ => destruct x as [l1|] eqn:E1; cbn [bind] in H; [|discriminate] end.
  match type of H with bind ?x _ = _ => destruct x as [l2|] eqn:E2; cbn [bind] in H; [|discriminate] end.
  inversion H; subst; clear H. split; [reflexivity|].
  apply l_commit_to_max in E2. rewrite E2. f_equal.
  destruct (N.eqb _ 0); [inversion E1; reflexivity|].
  destruct (_ <=? _); [discriminate|]. destruct (_ <? _); [discriminate|].
  unfold l_append in E1. inv_ok; reflexivity.
Qed.

(* C09: maybeSendSnapshot sends exactly the snapshot the log can offer: the one waiting in the unstable
   log if there is one, otherwise the storage's latest snapshot (which the application created from
   its applied, hence committed, state) *)
Theorem snapshot_sent_is_the_logs st r to pr r' :
  maybe_send_snapshot st r to pr = Ok (r', true) ->
  exists m, r_msgs r' = r_msgs r ++ [m] /\ m_type m = MsgSnap /\ m_to m = to /\
            m_snapshot m = Some (l_snapshot st (r_log r)) /\
            l_snapshot st (r_log r) = match u_snapshot (l_unstable (r_log r)) with
                                      | Some s => s
                                      | None => ms_get_snapshot st
                                      end.
Proof.
  unfold maybe_send_snapshot. intros H.
  destruct (negb (pr_recent_active pr)); [discriminate|].
  destruct (N.eqb _ 0); [discriminate|].
  apply bind_ok in H. destruct H as (r1 & E1 & H). injection H as <-. apply send_eq in E1. subst r1.
  eexists. split; [reflexivity|]. repeat split.
Qed.
