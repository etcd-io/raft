(* LocalProofs.v: node-local mechanisms behind C02, C06, C09, C10, C11, C14, C15, C20: each
   lemma is about one function of the node model, for every state and input. *)
From Coq Require Import List NArith Bool Lia.
From RaftV Require Import Base Types Quorum Progress Tracker Storage Log Raft RawNode Tactics
     RaftSteps RaftRouting QuorumProofs ListFacts.
Import ListNotations.
Open Scope N_scope.

Section WithStorage.
Variable st : memstorage.

Definition is_grant (t : msg_type) (m : message) : Prop := m_type m = t /\ m_reject m = false.

(* C02: a (real or pre-) vote is granted only when canVote holds and the candidate's log is at
   least as up to date as the voter's; a real grant records the vote. *)
Theorem vote_grant_conditions r m r' e :
  (m_type m = MsgVote \/ m_type m = MsgPreVote) ->
  step_dispatch st (step_inner st) r m = Ok (r', e) ->
  forall x, In x (r_msgs_after_append r') -> ~ In x (r_msgs_after_append r) -> m_reject x = false ->
  l_is_up_to_date st (r_log r) (m_logterm m) (m_index m) = Ok true /\
  (r_vote r = m_from m \/ (r_vote r = NoneId /\ r_lead r = NoneId) \/
   (m_type m = MsgPreVote /\ r_term r < m_term m)) /\
  (m_type m = MsgVote -> r_vote r' = m_from m) /\
  m_to x = m_from m /\ m_term x = m_term m.
Proof.
  (* the two requests share a branch; either way the answer is the one new message *)
  intros T. unfold step_dispatch. destruct T as [T|T]; rewrite T; cbv zeta; intros H x Hin Hnin Hrej.
  all: apply bind_ok in H; destruct H as (utd & EU & H).
  all: match type of H with (if ?c then _ else _) = _ => destruct c eqn:CV end.
  all: apply bind_ok in H; destruct H as (r1 & ES & H); apply send_eq in ES; subst r1; injection H as <- _.
  all: cbn in Hin; apply in_app_or in Hin; destruct Hin as [Hin|[<-|[]]]; [contradiction|].
  all: try discriminate Hrej.
  all: apply andb_true_iff in CV; destruct CV as [CV ->].
  all: repeat split; try assumption; try discriminate; bool_to_prop; auto; discriminate.
Qed.

Lemma send_state r x r' : send r x = Ok r' -> r_state r' = r_state r.
Proof. intros H. destruct (send_keeps _ _ _ H) as [E|E]; rewrite E; reflexivity. Qed.

(* at a follower switchToConfig returns before it looks at the progress *)
Lemma switch_to_config_follower r cfg pm x :
  r_state r = StateFollower -> switch_to_config st r cfg pm = Ok x -> r_state (fst x) = StateFollower.
Proof.
  intros S H. apply switch_to_config_not_leader in H; [|rewrite S; discriminate]. destruct H as [b ->]. exact S.
Qed.

Lemma follower_handles r m r' :
  r_state r = StateFollower ->
  handle_append_entries st r m = Ok r' \/ handle_heartbeat st r m = Ok r' \/ handle_snapshot st r m = Ok r' ->
  r_state r' = StateFollower.
Proof.
  intros S [H|[H|H]].
  - unfold handle_append_entries in H. inv_ok; apply send_state in H; rewrite H; exact S.
  - unfold handle_heartbeat in H. inv_ok. apply send_state in H. rewrite H. exact S.
  - unfold handle_snapshot in H. apply bind_ok in H. destruct H as ([r1 ok] & R & H).
    apply send_state in H. rewrite H. clear H. unfold restore in R.
    inv_ok; first [exact S | eapply become_follower_state; eassumption
                  | eapply switch_to_config_follower; [|eassumption]; exact S].
Qed.

(* C02: a candidate becomes leader only in the VoteWon branch of a MsgVoteResp: the tally of the
   recorded votes over the joint configuration (decision function of C12). *)
Theorem candidate_becomes_leader_only_on_quorum r m r' e :
  r_state r = StateCandidate -> step_candidate st r m = Ok (r', e) -> r_state r' = StateLeader ->
  m_type m = MsgVoteResp /\
  joint_vote (c_voters (t_config (r_trk r))) (c_outgoing (t_config (r_trk r)))
             (t_votes (record_vote (r_trk r) (m_from m) (negb (m_reject m)))) = VoteWon /\
  alookup (t_votes (record_vote (r_trk r) (m_from m) (negb (m_reject m)))) (r_id r) = Some true.
Proof.
  intros S. unfold step_candidate. rewrite S.
  assert (same : forall x e0, Ok (x, e0) = Ok (r', e) -> r_state x = StateCandidate -> r_state r' <> StateLeader).
  { intros x e0 H X. injection H as <- _. rewrite X. discriminate. }
  assert (follows : forall a b, become_follower st r (m_term m) (m_from m) = Ok a ->
            handle_append_entries st a m = Ok b \/ handle_heartbeat st a m = Ok b \/ handle_snapshot st a m = Ok b ->
            r_state b <> StateLeader).
  { intros a b B H. apply become_follower_state in B. rewrite (follower_handles _ _ _ B H). discriminate. }
  destruct (m_type m) eqn:T; try (intros H L; destruct (same _ _ H S L)).
  all: try (intros H L; inv_ok; exfalso; eapply follows; eauto; fail).
  all: destruct (msg_type_eqb _ _) eqn:EQ; [|intros H L; destruct (same _ _ H S L)]; try discriminate EQ.
  rewrite poll_eq. destruct (_ && _ && _); [intros H L; destruct (same _ _ H S L)|].
  destruct (joint_vote _ _ _) eqn:J; cbv beta iota; cbn [r_state r_trk r_id set_r_trk]; rewrite ?S.
  - intros H L. destruct (same _ _ H S L).
  - intros H L. inv_ok. apply become_follower_state in E. congruence.
  - change (state_type_eqb StateCandidate StatePreCandidate) with false. cbv iota.
    destruct (alookup _ _) as [[|]|]; [auto| |]; intros H L; destruct (same _ _ H S L).
Qed.

(* C06: maybeCommit moves the commit index only to the quorum index computed by C12's function over
   the Match values, and only if the entry there carries the leader's current term. *)
Theorem maybe_commit_spec r r' b :
  maybe_commit st r = Ok (r', b) ->
  (b = false -> r' = r) /\
  (b = true ->
     l_committed (r_log r') = t_committed (r_trk r) /\
     l_committed (r_log r) < t_committed (r_trk r) /\
     l_match_term st (r_log r) (t_committed (r_trk r)) (r_term r) = true /\
     t_committed (r_trk r) <= l_last_index st (r_log r)).
Proof.
  unfold maybe_commit, l_maybe_commit. intros H.
  destruct (negb (N.eqb (r_term r) 0) && (l_committed (r_log r) <? t_committed (r_trk r)) &&
            l_match_term st (r_log r) (t_committed (r_trk r)) (r_term r)) eqn:C; cbn [bind] in H.
  - unfold l_commit_to in H.
    apply andb_true_iff in C. destruct C as [C M]. apply andb_true_iff in C. destruct C as [_ C].
    rewrite C in H. destruct (l_last_index st (r_log r) <? t_committed (r_trk r)) eqn:L; cbn [bind] in H; [discriminate|].
    inversion H; subst; clear H. split; [discriminate|]. intros _. cbn.
    apply N.ltb_lt in C. apply N.ltb_ge in L. auto.
  - inversion H; subst; clear H. split; [|discriminate]. intros _. destruct r; reflexivity.
Qed.

(* C06: heartbeats carry min(Match, committed) *)
Theorem heartbeat_commit_clamped r to ctx r' pr :
  get_progress r to = Some pr -> send_heartbeat r to ctx = Ok r' ->
  exists m, r_msgs r' = r_msgs r ++ [m] /\ m_type m = MsgHeartbeat /\
            m_commit m = N.min (pr_match pr) (l_committed (r_log r)).
Proof.
  unfold send_heartbeat. intros G H. rewrite G in H.
  apply bind_ok in H. destruct H as (r1 & ES & H). injection H as <-. apply send_eq in ES. subst r1.
  eexists. split; [reflexivity|]. cbn. auto.
Qed.

(* C06: a follower adopts min(leader commit, last new index) and never moves beyond its log *)
Theorem commit_to_bounded l c l' :
  l_commit_to st l c = Ok l' -> l_committed l <= l_last_index st l -> l_committed l' <= l_last_index st l.
Proof.
  unfold l_commit_to. intros H I.
  destruct (l_committed l <? c); [|inversion H; subst; exact I].
  destruct (l_last_index st l <? c) eqn:L; [discriminate|]. inversion H; subst. cbn. apply N.ltb_ge in L. exact L.
Qed.

(* C09: restore ignores a snapshot at or below the commit index and accepts one only as a follower
   that is a member of the snapshot's configuration *)
Theorem restore_guards r s r' ok :
  restore st r s = Ok (r', ok) ->
  (s_index s <= l_committed (r_log r) -> r' = r /\ ok = false) /\
  (ok = true ->
     l_committed (r_log r) < s_index s /\ r_state r = StateFollower /\
     l_match_term st (r_log r) (s_index s) (s_term s) = false /\
     (In (r_id r) (cs_voters (s_conf s)) \/ In (r_id r) (cs_learners (s_conf s)) \/
      In (r_id r) (cs_voters_outgoing (s_conf s)))) /\
  (ok = false -> l_unstable (r_log r') = l_unstable (r_log r) \/ r_state r <> StateFollower).
Proof.
  unfold restore. intros H.
  destruct (s_index s <=? l_committed (r_log r)) eqn:L.
  { injection H as <- <-. split; [auto|]. split; [discriminate|auto]. }
  apply N.leb_gt in L. split; [lia|].
  destruct (negb (state_type_eqb (r_state r) StateFollower)) eqn:S.
  { apply bind_ok in H. destruct H as (a & _ & H). injection H as _ <-. split; [discriminate|].
    intros _. right. destruct (r_state r); discriminate. }
  assert (SF : r_state r = StateFollower) by (destruct (r_state r); try discriminate S; reflexivity).
  cbv zeta in H.
  destruct (negb (existsb _ _ || existsb _ _ || existsb _ _)) eqn:F.
  { injection H as <- <-. split; [discriminate|auto]. }
  destruct (l_match_term st (r_log r) (s_index s) (s_term s)) eqn:M.
  { apply bind_ok in H. destruct H as (l & C & H). injection H as <- <-. split; [discriminate|].
    intros _. left. unfold l_commit_to in C. inv_ok; reflexivity. }
  split.
  - intros _. split; [exact L|]. split; [exact SF|]. split; [reflexivity|]. apply negb_false_iff in F.
    assert (EX : forall l, existsb (N.eqb (r_id r)) l = true -> In (r_id r) l).
    { intros l X. apply existsb_exists in X. destruct X as [y [Y1 Y2]]. apply N.eqb_eq in Y2. subst. exact Y1. }
    apply orb_true_iff in F. destruct F as [F|F]; [apply orb_true_iff in F; destruct F as [F|F]|]; auto.
  - (* past the guards the snapshot is installed *)
    intros ->. exfalso. destruct (cc_restore _ _ _) as [[cfg pm]|]; [|discriminate].
    apply bind_ok in H. destruct H as (x & _ & H). destruct (confstate_equiv _ _); discriminate.
Qed.

(* C10: a configuration-change entry survives the gate (with validation on) only if no earlier
   change may still be unapplied, the joint/leave shapes fit, and the current configuration
   accepts the change (a dry run of the Changer: the F6 repair); otherwise it is replaced by an
   empty normal entry.  A surviving change moves pendingConfIndex to its own index. *)
Theorem prop_gate_single r li e r' es' :
  is_cc_type (e_type e) = true -> r_disable_cc_validation r = false ->
  prop_gate r li 0 [e] = (r', es') ->
  (r_pending_conf_index r <= l_applied (r_log r) /\
   (0 <? nlen (c_outgoing (t_config (r_trk r)))) = e_leave e /\
   cc_accepted r li e = true /\
   es' = [e] /\ r_pending_conf_index r' = li + 1)
  \/
  (es' = [mkEntry 0 0 EntryNormal true [] false false] /\ r' = r).
Proof.
  intros CC V H. cbn [prop_gate] in H. rewrite CC, V in H. cbn [negb andb] in H.
  destruct (l_applied (r_log r) <? r_pending_conf_index r) eqn:P; cbn [orb] in H.
  - right. rewrite andb_true_r in H. inversion H. auto.
  - destruct (0 <? nlen (c_outgoing (t_config (r_trk r)))) eqn:J; destruct (e_leave e) eqn:L;
      destruct (cc_accepted r li e) eqn:A; cbn [negb andb orb] in H;
      inversion H; subst; auto; left; apply N.ltb_ge in P; repeat split; auto; cbn; lia.
Qed.

(* C10: a change that the current configuration does not accept (one that would remove every voter,
   say) never enters the log of a validating leader *)
Theorem prop_gate_refuses_unacceptable r li e r' es' :
  is_cc_type (e_type e) = true -> r_disable_cc_validation r = false ->
  cc_accepted r li e = false ->
  prop_gate r li 0 [e] = (r', es') ->
  es' = [mkEntry 0 0 EntryNormal true [] false false] /\ r' = r.
Proof.
  intros CC V A H. destruct (prop_gate_single r li e r' es' CC V H) as [(_ & _ & A' & _)|R]; [congruence|exact R].
Qed.

(* C10: hup refuses to campaign while a committed configuration change is unapplied *)
Theorem hup_refuses_unapplied_cc r t r' :
  has_unapplied_conf_changes st r = Ok true -> hup st r t = Ok r' -> r' = r.
Proof.
  unfold hup. intros U H. destruct (state_type_eqb _ _); [inversion H; reflexivity|].
  destruct (negb (promotable r)); [inversion H; reflexivity|].
  rewrite U in H. cbn in H. inversion H. reflexivity.
Qed.

(* appendEntry: refused by the limit on uncommitted payload, or the stamped entries go to the log
   and the node acknowledges them to itself *)
Lemma append_entry_ok r es r' ok :
  append_entry st r es = Ok (r', ok) ->
  if ok
  then exists u l a, l_append st (r_log r) (stamp (r_term r) (last_index st r + 1) es) = Ok l /\
                     send (set_r_log (set_r_uncommitted_size r u) l) a = Ok r'
  else r' = r.
Proof.
  unfold append_entry, increase_uncommitted_size. intros H.
  destruct (_ && _ && _); cbn [negb] in H; [injection H as <- <-; reflexivity|].
  apply bind_ok in H. destruct H as (l & EL & H). apply bind_ok in H. destruct H as (r1 & ES & H).
  injection H as <- <-. eauto.
Qed.

(* becomeLeader: reset at the same term, the own Progress replicating, the whole log pending, then
   the empty entry of the new term *)
Lemma become_leader_ok r r' :
  become_leader st r = Ok r' ->
  exists r0 pr, reset st r (r_term r) = Ok r0 /\
    let r1 := set_r_state (set_r_lead r0 (r_id r0)) StateLeader in
    let r2 := put_progress r1 (r_id r1) (pr_with_recent_active (pr_become_replicate pr) true) in
    append_entry st (set_r_pending_conf_index r2 (last_index st r2)) [empty_entry] = Ok (r', true).
Proof.
  unfold become_leader. intros H. destruct (state_type_eqb _ _); [discriminate|].
  apply bind_ok in H. destruct H as (r0 & R & H). destruct (get_progress _ _) as [pr|]; [|discriminate].
  apply bind_ok in H. destruct H as ([r2 b] & A & H). destruct b; [|discriminate]. injection H as <-. eauto.
Qed.

(* C10: a new leader treats its whole log as possibly holding an unapplied change *)
Theorem become_leader_pending_conf r r' :
  become_leader st r = Ok r' -> exists r0, reset st r (r_term r) = Ok r0 /\
  r_pending_conf_index r' = l_last_index st (r_log r0) /\ r_state r' = StateLeader /\ r_lead r' = r_id r'.
Proof.
  intros H. destruct (become_leader_ok _ _ H) as (r0 & pr & R & A). exists r0. split; [exact R|].
  apply append_entry_ok in A. destruct A as (u & l & a & _ & S).
  destruct (send_keeps _ _ _ S) as [E|E]; rewrite E; repeat split; reflexivity.
Qed.

(* C11: a leader (sole voter or not) that has not committed an entry of its own term produces no
   read state and no response for a MsgReadIndex: it only postpones it. *)
Theorem read_index_postponed r m r' e :
  m_type m = MsgReadIndex -> committed_entry_in_current_term st r = false ->
  step_leader st r m = Ok (r', e) ->
  r' = set_r_pending_read_index r (r_pending_read_index r ++ [m]).
Proof.
  intros T C H. unfold step_leader in H. rewrite T, C in H. cbn in H. inversion H. reflexivity.
Qed.

(* C11: a leader that is not itself a voter of its configuration (it was removed and has not stepped
   down) never takes the sole-voter shortcut: under ReadOnlySafe the request is queued and a
   heartbeat round to the voters is started, whatever the size of the voter set. *)
Theorem non_voter_leader_asks_quorum r m r' :
  existsb (N.eqb (r_id r)) (c_voters (t_config (r_trk r))) = false ->
  ro_option (r_read_only r) = ReadOnlySafe ->
  send_msg_read_index_response r m = Ok r' ->
  exists ro,
    ro_recv_ack (ro_add_request (r_read_only r) (l_committed (r_log r)) m) (r_id r)
                (ro_heartbeat_ctx (ro_add_request (r_read_only r) (l_committed (r_log r)) m)) = Ok ro /\
    bcast_heartbeat (set_r_read_only r ro) = Ok r'.
Proof.
  intros NV RO H. unfold send_msg_read_index_response in H. rewrite NV, RO in H. cbn [andb] in H.
  match type of H with bind ?x _ = _ => destruct x as [ro|] eqn:E; cbn [bind] in H; [|discriminate] end.
  exists ro. split; [reflexivity|exact H].
Qed.

(* C11: reads are confirmed only up to the quorum order statistic of the acknowledged positions *)
Theorem ro_advance_quorum ro c0 c1 ro' out :
  ro_maybe_advance ro c0 c1 = Ok (ro', out) ->
  (out = [] /\ ro' = ro) \/
  (ro_confirmed ro < joint_committed c0 c1 (ro_acks ro) /\
   ro_confirmed ro' = joint_committed c0 c1 (ro_acks ro) /\
   nlen out = joint_committed c0 c1 (ro_acks ro) - ro_confirmed ro /\
   ro_unconfirmed ro = out ++ ro_unconfirmed ro').
Proof.
  unfold ro_maybe_advance. intros H.
  destruct (_ <=? _) eqn:L; [inversion H; left; auto|]. apply N.leb_gt in L.
  destruct (nlen (ro_unconfirmed ro) <? _) eqn:K; [discriminate|]. apply N.ltb_ge in K.
  inversion H; subst; clear H. right. cbn. split; [exact L|]. split; [reflexivity|].
  set (k := joint_committed c0 c1 (ro_acks ro) - ro_confirmed ro) in *.
  unfold ntake, ndrop. destruct (nlen (ro_unconfirmed ro) <=? k) eqn:Q.
  - apply N.leb_le in Q. assert (nlen (ro_unconfirmed ro) = k) by lia. split; [assumption|]. rewrite app_nil_r. reflexivity.
  - split; [|symmetry; apply firstn_skipn]. unfold nlen. rewrite firstn_length.
    apply N.leb_gt in Q. unfold nlen in Q. lia.
Qed.

Lemma majority_acked_mono vs ack i j : j <= i -> majority_acked vs ack i -> majority_acked vs ack j.
Proof.
  unfold majority_acked, ackers. intros L H.
  enough (length (filter (fun v => i <=? ack_or_zero ack v) vs) <= length (filter (fun v => j <=? ack_or_zero ack v) vs))%nat by lia.
  apply filter_length_le. intros x _ X. apply N.leb_le in X. apply N.leb_le. lia.
Qed.

(* C11: ... and that order statistic is acknowledged by a majority of EACH half of a joint
   configuration: reads that are confirmed were answered by a majority of the incoming voters and
   by a majority of the outgoing voters (an empty half asks for nothing) *)
Theorem ro_advance_both_majorities ro c0 c1 ro' out :
  ro_maybe_advance ro c0 c1 = Ok (ro', out) -> out <> [] ->
  (c0 <> [] -> majority_acked c0 (ro_acks ro) (ro_confirmed ro')) /\
  (c1 <> [] -> majority_acked c1 (ro_acks ro) (ro_confirmed ro')).
Proof.
  intros H Hne. destruct (ro_advance_quorum _ _ _ _ _ H) as [[E _]|(_ & E & _)]; [contradiction|].
  rewrite E, joint_committed_min. split; intros Hc.
  - apply (majority_acked_mono _ _ (majority_committed c0 (ro_acks ro))); [lia|].
    apply majority_committed_greatest; exact Hc.
  - apply (majority_acked_mono _ _ (majority_committed c1 (ro_acks ro))); [lia|].
    apply majority_committed_greatest; exact Hc.
Qed.

(* C11: read bookkeeping is dropped on every role or term change (reset) *)
Theorem reset_clears_read_only r t r' :
  reset st r t = Ok r' -> r_read_only r' = new_readonly (ro_option (r_read_only r)).
Proof. intros H. destruct (reset_eq _ _ _ _ H) as (d & ds & _ & E). rewrite E. reflexivity. Qed.

(* C06: ... and so is everything a node knew about its peers' logs: after reset every peer's Match is 0
   and it is probed again (what was acknowledged in an earlier term says nothing about the peer's
   log now: its tail may have been replaced since) *)
Theorem reset_forgets_matches r t r' id pr :
  reset st r t = Ok r' -> In (id, pr) (t_progress (r_trk r')) -> id <> r_id r ->
  pr_match pr = 0 /\ pr_state_ pr = StateProbe /\ pr_pending_snapshot pr = 0 /\ pr_recent_active pr = false.
Proof.
  intros H Hin Hne. destruct (reset_eq _ _ _ _ H) as (d & ds & _ & E). rewrite E in Hin.
  apply in_map_iff in Hin. destruct Hin as ([id0 p0] & Q & _). inversion Q; subst.
  apply N.eqb_neq in Hne. cbn [fst]. rewrite Hne. repeat split; reflexivity.
Qed.

(* C09: what a node answers to a MsgSnap: one MsgAppResp, held back until the write is durable, that
   vouches for the whole log only if the snapshot was installed (the log is then the snapshot point
   and nothing else); a snapshot that was ignored, or that only moved the commit index forward, is
   answered with the commit index: the tail beyond it was not checked against the sender's log *)
Theorem snapshot_answer r m r' :
  handle_snapshot st r m = Ok r' ->
  exists r1 ok a,
    restore st r (match m_snapshot m with Some s => s | None => empty_snapshot end) = Ok (r1, ok) /\
    r_msgs_after_append r' = r_msgs_after_append r1 ++ [a] /\ r_msgs r' = r_msgs r1 /\
    m_type a = MsgAppResp /\ m_to a = m_from m /\ m_from a = r_id r1 /\ m_term a = r_term r1 /\
    m_reject a = false /\
    m_index a = (if ok then last_index st r1 else l_committed (r_log r1)).
Proof.
  unfold handle_snapshot. intros H.
  destruct (restore st r _) as [[r1 ok]|] eqn:E; cbn [bind] in H; [|discriminate].
  exists r1, ok. apply send_eq in H. subst r'.
  eexists. split; [reflexivity|]. cbn. repeat split; reflexivity.
Qed.

(* C14: the nested Step issued by appliedTo carries a MsgProp with term 0, whose handling does not
   depend on the nested-call parameter: two levels of [step_gen] are exact, the
   [PUnreachable] leaf is never reached. *)
Theorem step_gen_prop_independent k1 k2 r m :
  m_type m = MsgProp -> m_term m = 0 -> step_gen st k1 r m = step_gen st k2 r m.
Proof.
  intros T Z. rewrite !step_gen_local by exact Z. unfold step_dispatch. rewrite T. reflexivity.
Qed.

(* C15: a heartbeat response clears the flow-control pause of the follower *)
Theorem heartbeat_resp_unpauses r m r' e pr :
  m_type m = MsgHeartbeatResp -> get_progress r (m_from m) = Some pr ->
  pr_match pr = l_last_index st (r_log r) -> pr_state_ pr <> StateProbe -> m_context m = [] ->
  step_leader st r m = Ok (r', e) ->
  get_progress r' (m_from m) = Some (pr_with_paused (pr_with_recent_active pr true) false).
Proof.
  intros T G M NP C H. unfold step_leader in H. rewrite T, G in H. cbv zeta in H. rewrite C in H.
  assert (Z : (pr_match (pr_with_paused (pr_with_recent_active pr true) false) <?
               last_index st (put_progress r (m_from m) (pr_with_paused (pr_with_recent_active pr true) false))) = false).
  { cbn. unfold last_index. cbn. rewrite M. apply N.ltb_irrefl. }
  rewrite Z in H.
  assert (Z2 : pr_state_eqb (pr_state_ (pr_with_paused (pr_with_recent_active pr true) false)) StateProbe = false).
  { cbn. destruct (pr_state_ pr); try reflexivity. contradiction NP. reflexivity. }
  rewrite Z2 in H. cbn [orb bind] in H.
  destruct (ro_option (r_read_only _)); inversion H; subst; apply get_put_progress.
Qed.

(* C03, C20: stamping keeps type, payload and order; only term and index are assigned *)
Theorem stamp_preserves term : forall es next,
  map e_type (stamp term next es) = map e_type es /\
  map e_data (stamp term next es) = map e_data es /\
  length (stamp term next es) = length es /\
  Forall (fun e => e_term e = term) (stamp term next es).
Proof.
  induction es as [|e es IH]; intros next; cbn; [repeat split; constructor|].
  destruct (IH (next + 1)) as (A & B & C & D). rewrite A, B, C. repeat split. constructor; [reflexivity|exact D].
Qed.

Lemma follower_prop r m r' e :
  m_type m = MsgProp -> step_follower st r m = Ok (r', e) ->
  (e = ErrProposalDropped /\ r' = r) \/
  (e = ENone /\ r_lead r <> NoneId /\ r' = set_r_msgs r (r_msgs r ++ [stamped r (set_to m (r_lead r))])).
Proof.
  intros T H. unfold step_follower in H. rewrite T in H.
  destruct (N.eqb (r_lead r) NoneId) eqn:L; [inversion H; left; auto|].
  destruct (r_disable_proposal_forwarding r); [inversion H; left; auto|].
  apply bind_ok in H. destruct H as (r1 & S & H). injection H as <- <-.
  apply send_eq in S. cbn [m_type set_to] in S. rewrite T in S.
  right. split; [reflexivity|]. split; [apply N.eqb_neq; exact L|exact S].
Qed.

(* C20: a follower forwards a proposal unchanged to its leader, or reports it dropped and
   queues nothing *)
Theorem follower_forwards_or_drops r m r' e :
  m_type m = MsgProp -> m_term m = 0 -> step_follower st r m = Ok (r', e) ->
  (e = ErrProposalDropped /\ r' = r) \/
  (e = ENone /\ r_lead r <> NoneId /\ exists m', r_msgs r' = r_msgs r ++ [m'] /\
     m_entries m' = m_entries m /\ m_to m' = r_lead r /\ m_type m' = MsgProp).
Proof.
  intros T _ H. destruct (follower_prop _ _ _ _ T H) as [D|(E & L & ->)]; [left; exact D|right].
  split; [exact E|]. split; [exact L|]. eexists. split; [reflexivity|].
  unfold stamped. cbn [m_from set_to].
  destruct (N.eqb (m_from m) NoneId); cbn [m_type set_from set_to]; rewrite T; cbn; auto.
Qed.

(* C20: a candidate never accepts a proposal *)
Theorem candidate_drops_proposals r m r' e :
  m_type m = MsgProp -> step_candidate st r m = Ok (r', e) -> e = ErrProposalDropped /\ r' = r.
Proof. intros T H. unfold step_candidate in H. rewrite T in H. inversion H. auto. Qed.

End WithStorage.
