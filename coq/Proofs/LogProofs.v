(* LogProofs.v: MemoryStorage and the unstable log behave like one abstract log (C18):
   a compacted prefix (base index, base term) followed by entries with consecutive indexes. *)
From Coq Require Import List NArith Bool Lia Arith.
From RaftV Require Import ListFacts Base Types Storage Log Tactics.
Import ListNotations.
Open Scope N_scope.


Fixpoint contig (i : N) (es : list entry) : Prop :=
  match es with
  | [] => True
  | e :: rest => e_index e = i /\ contig (i + 1) rest
  end.

Record abslog := mkAbs { a_base : N; a_base_term : N; a_ents : list entry }.

Definition a_wf (a : abslog) : Prop := contig (a_base a + 1) (a_ents a).
Definition a_first (a : abslog) : N := a_base a + 1.
Definition a_last (a : abslog) : N := a_base a + nlen (a_ents a).

Definition a_at (a : abslog) (i : N) : option entry :=
  if i <=? a_base a then None else nth_error (a_ents a) (N.to_nat (i - a_base a - 1)).

Definition a_term (a : abslog) (i : N) : option N :=
  if N.eqb i (a_base a) then Some (a_base_term a)
  else match a_at a i with Some e => Some (e_term e) | None => None end.

Definition a_range (a : abslog) (lo hi : N) : list entry :=
  firstn (N.to_nat (hi - lo)) (skipn (N.to_nat (lo - a_base a - 1)) (a_ents a)).

Definition a_truncate_append (a : abslog) (es : list entry) : abslog :=
  match es with
  | [] => a
  | e0 :: _ => mkAbs (a_base a) (a_base_term a) (firstn (N.to_nat (e_index e0 - a_base a - 1)) (a_ents a) ++ es)
  end.

Definition abs_ms (s : memstorage) : abslog := mkAbs (ms_dummy_index s) (ms_dummy_term s) (ms_ents s).
Definition ms_wf (s : memstorage) : Prop := a_wf (abs_ms s).

Lemma sub64_small a b : b <= a < two64 -> sub64 a b = a - b.
Proof.
  intros R. unfold sub64. replace (a + two64 - b) with (a - b + 1 * two64) by lia.
  rewrite N.mod_add by (unfold two64; lia). apply N.mod_small. lia.
Qed.

Lemma nlen_cons {A} (x : A) l : nlen (x :: l) = nlen l + 1.
Proof. unfold nlen. cbn [length]. lia. Qed.

Lemma nlen_app {A} (a b : list A) : nlen (a ++ b) = nlen a + nlen b.
Proof. unfold nlen. rewrite app_length. lia. Qed.

Lemma nlen_firstn {A} k (l : list A) : nlen (firstn k l) = N.min (N.of_nat k) (nlen l).
Proof. unfold nlen. rewrite firstn_length. lia. Qed.

Lemma nlen_skipn {A} k (l : list A) : nlen (skipn k l) = nlen l - N.of_nat k.
Proof. unfold nlen. rewrite skipn_length. lia. Qed.

Lemma length_nlen {A} (l : list A) : length l = N.to_nat (nlen l).
Proof. unfold nlen. lia. Qed.

Lemma nth_error_nlen {A} (l : list A) k e : nth_error l k = Some e -> N.of_nat k < nlen l.
Proof. intros H. apply nth_error_Some_lt in H. unfold nlen. lia. Qed.

Lemma nth_error_nlen_None {A} (l : list A) k : nth_error l k = None -> nlen l <= N.of_nat k.
Proof. intros H. apply nth_error_None in H. unfold nlen. lia. Qed.

Lemma nth_error_cut {A} (l : list A) p n k e :
  nth_error (firstn n (skipn p l)) k = Some e -> (k < n)%nat /\ nth_error l (p + k) = Some e.
Proof.
  intros H. assert (K : (k < n)%nat) by (apply nth_error_nlen in H; rewrite nlen_firstn in H; lia).
  rewrite nth_error_firstn, nth_error_skipn in H by exact K. auto.
Qed.

Lemma ndrop_skipn {A} n (l : list A) : ndrop n l = skipn (N.to_nat n) l.
Proof.
  unfold ndrop. destruct (N.leb_spec (nlen l) n); [|reflexivity].
  symmetry. apply skipn_all2. rewrite length_nlen. lia.
Qed.

Lemma ntake_firstn {A} n (l : list A) : ntake n l = firstn (N.to_nat n) l.
Proof.
  unfold ntake. destruct (N.leb_spec (nlen l) n); [|reflexivity].
  symmetry. apply firstn_all2. rewrite length_nlen. lia.
Qed.

Lemma nnth_nth {A} n (l : list A) : nnth n l = nth_error l (N.to_nat n).
Proof.
  unfold nnth. destruct (N.leb_spec (nlen l) n); [|reflexivity].
  symmetry. apply nth_error_None. rewrite length_nlen. lia.
Qed.


Lemma contig_app i a b : contig i (a ++ b) <-> contig i a /\ contig (i + nlen a) b.
Proof.
  revert i. induction a as [|e a IH]; intros i; cbn [app contig].
  - change (nlen []) with 0. rewrite N.add_0_r. tauto.
  - rewrite IH, nlen_cons. replace (i + 1 + nlen a) with (i + (nlen a + 1)) by lia. tauto.
Qed.

Lemma contig_firstn i es n : contig i es -> contig i (firstn n es).
Proof.
  revert i n. induction es as [|e es IH]; intros i n H; destruct n; cbn; auto.
  destruct H as [H1 H2]. split; [exact H1|apply IH; exact H2].
Qed.

Lemma contig_skipn i es n : contig i es -> contig (i + N.of_nat n) (skipn n es).
Proof.
  revert i n. induction es as [|e es IH]; intros i n H; destruct n; cbn [skipn contig]; auto.
  - cbn. rewrite N.add_0_r. exact H.
  - destruct H as [H1 H2]. replace (i + N.of_nat (S n)) with (i + 1 + N.of_nat n) by lia. apply IH. exact H2.
Qed.

Lemma contig_skipn_to i j es : i <= j -> contig i es -> contig j (skipn (N.to_nat (j - i)) es).
Proof.
  intros L C. replace j with (i + N.of_nat (N.to_nat (j - i))) at 1 by lia. apply contig_skipn. exact C.
Qed.

Lemma contig_nth i es k e : contig i es -> nth_error es k = Some e -> e_index e = i + N.of_nat k.
Proof.
  revert i k. induction es as [|x es IH]; intros i k H N; destruct k; cbn in N; try discriminate.
  - inversion N; subst. destruct H as [H _]. cbn. lia.
  - destruct H as [_ H]. rewrite (IH _ _ H N). lia.
Qed.

Lemma a_at_nth a i : a_base a < i -> a_at a i = nth_error (a_ents a) (N.to_nat (i - a_base a - 1)).
Proof. intros L. unfold a_at. destruct (N.leb_spec i (a_base a)); [lia|reflexivity]. Qed.

Lemma a_at_below a i : i <= a_base a -> a_at a i = None.
Proof. intros L. unfold a_at. destruct (N.leb_spec i (a_base a)); [reflexivity|lia]. Qed.

Lemma a_at_some a i e : a_at a i = Some e -> a_base a < i <= a_last a.
Proof.
  intros H. destruct (N.le_gt_cases i (a_base a)) as [L|L]; [rewrite a_at_below in H by exact L; discriminate|].
  rewrite a_at_nth in H by exact L. apply nth_error_nlen in H. unfold a_last. lia.
Qed.

Lemma a_at_none a i : a_at a i = None -> i <= a_base a \/ a_last a < i.
Proof.
  intros H. destruct (N.le_gt_cases i (a_base a)) as [L|L]; [left; exact L|right].
  rewrite a_at_nth in H by exact L. apply nth_error_nlen_None in H. unfold a_last. lia.
Qed.

Lemma a_term_base a i : i = a_base a -> a_term a i = Some (a_base_term a).
Proof. intros ->. unfold a_term. rewrite N.eqb_refl. reflexivity. Qed.

Lemma a_term_at a i : i <> a_base a -> a_term a i = option_map e_term (a_at a i).
Proof. intros NE. unfold a_term. destruct (N.eqb_spec i (a_base a)); [contradiction|]. destruct (a_at a i); reflexivity. Qed.

Lemma a_term_below a i : i < a_base a -> a_term a i = None.
Proof. intros L. rewrite a_term_at, a_at_below by lia. reflexivity. Qed.

Lemma a_term_some a i t : a_term a i = Some t -> a_base a <= i <= a_last a.
Proof.
  destruct (N.eq_dec i (a_base a)) as [->|NE]; [unfold a_last; lia|].
  rewrite a_term_at by exact NE. destruct (a_at a i) as [e|] eqn:E; [|discriminate].
  apply a_at_some in E. lia.
Qed.

Lemma a_term_none a i : a_term a i = None -> i < a_base a \/ a_last a < i.
Proof.
  destruct (N.eq_dec i (a_base a)) as [->|NE]; [rewrite a_term_base by reflexivity; discriminate|].
  rewrite a_term_at by exact NE. destruct (a_at a i) eqn:E; [discriminate|]. apply a_at_none in E. lia.
Qed.

Lemma a_range_contig a lo hi : a_wf a -> a_base a < lo -> contig lo (a_range a lo hi).
Proof.
  intros W L. apply contig_firstn. replace (lo - a_base a - 1) with (lo - (a_base a + 1)) by lia.
  apply contig_skipn_to; [lia|exact W].
Qed.

Lemma a_range_len a lo hi : nlen (a_range a lo hi) <= hi - lo.
Proof. unfold a_range. rewrite nlen_firstn. lia. Qed.

Lemma a_range_nth a lo hi k e : a_base a < lo ->
  nth_error (a_range a lo hi) k = Some e -> lo + N.of_nat k < hi /\ a_at a (lo + N.of_nat k) = Some e.
Proof.
  intros L H. apply nth_error_cut in H as [K H]. split; [lia|]. rewrite a_at_nth by lia.
  rewrite <- H. f_equal. lia.
Qed.

(* Both truncate-and-append and the way a raftLog is split between storage and the unstable
   entries have the form [a_splice a i es]. *)
Definition a_splice (a : abslog) (i : N) (es : list entry) : abslog :=
  mkAbs (a_base a) (a_base_term a) (firstn (N.to_nat (i - a_base a - 1)) (a_ents a) ++ es).

Section Splice.
Variables (a : abslog) (i : N) (es : list entry).
Hypothesis R : a_base a < i <= a_last a + 1.

Lemma a_splice_kept : nlen (firstn (N.to_nat (i - a_base a - 1)) (a_ents a)) = i - a_base a - 1.
Proof. rewrite nlen_firstn. unfold a_last in R. lia. Qed.

Lemma a_splice_last : a_last (a_splice a i es) = i + nlen es - 1.
Proof. unfold a_last, a_splice. cbn [a_base a_ents]. rewrite nlen_app, a_splice_kept. lia. Qed.

Lemma a_splice_wf : a_wf a -> contig i es -> a_wf (a_splice a i es).
Proof.
  intros W C. unfold a_wf, a_splice. cbn [a_base a_ents]. apply contig_app. split; [apply contig_firstn; exact W|].
  rewrite a_splice_kept. replace (a_base a + 1 + (i - a_base a - 1)) with i by lia. exact C.
Qed.

Lemma a_splice_at_below j : j < i -> a_at (a_splice a i es) j = a_at a j.
Proof.
  intros L. destruct (N.le_gt_cases j (a_base a)) as [B|B]; [rewrite !a_at_below by exact B; reflexivity|].
  rewrite !a_at_nth by exact B. cbn [a_splice a_base a_ents].
  rewrite nth_error_app1 by (rewrite length_nlen, a_splice_kept; lia). apply nth_error_firstn. lia.
Qed.

Lemma a_splice_at_above j : i <= j -> a_at (a_splice a i es) j = nth_error es (N.to_nat (j - i)).
Proof.
  intros L. rewrite a_at_nth by (cbn [a_splice a_base]; lia). cbn [a_splice a_base a_ents].
  rewrite nth_error_app2 by (rewrite length_nlen, a_splice_kept; lia).
  rewrite length_nlen, a_splice_kept. f_equal. lia.
Qed.

Lemma a_splice_term_below j : j < i -> a_term (a_splice a i es) j = a_term a j.
Proof.
  intros L. destruct (N.eq_dec j (a_base a)) as [->|NE]; [rewrite !a_term_base by reflexivity; reflexivity|].
  rewrite !a_term_at by exact NE. rewrite a_splice_at_below by exact L. reflexivity.
Qed.

Lemma a_splice_splice j fs :
  a_splice (a_splice a i es) j fs = a_splice a (N.min i j) (firstn (N.to_nat (j - i)) es ++ fs).
Proof.
  unfold a_splice. cbn [a_base a_base_term a_ents]. f_equal.
  rewrite firstn_app, firstn_firstn, length_nlen, a_splice_kept, app_assoc. f_equal. f_equal; [f_equal; lia|].
  f_equal. lia.
Qed.
End Splice.

Lemma a_splice_end a es : a_splice a (a_last a + 1) es = mkAbs (a_base a) (a_base_term a) (a_ents a ++ es).
Proof. unfold a_splice, a_last. rewrite firstn_all2 by (rewrite length_nlen; lia). reflexivity. Qed.

Lemma a_truncate_append_base a es :
  a_base (a_truncate_append a es) = a_base a /\ a_base_term (a_truncate_append a es) = a_base_term a.
Proof. destruct es; split; reflexivity. Qed.

Lemma a_truncate_append_splice a e0 rest : a_truncate_append a (e0 :: rest) = a_splice a (e_index e0) (e0 :: rest).
Proof. reflexivity. Qed.


(* Term: ErrCompacted exactly below the base, ErrUnavailable exactly above the last index,
   otherwise the abstract term *)
Theorem ms_term_refines s i :
  match ms_term s i with
  | (t, ENone) => a_base (abs_ms s) <= i <= a_last (abs_ms s) /\ a_term (abs_ms s) i = Some t
  | (_, ErrCompacted) => i < a_base (abs_ms s)
  | (_, ErrUnavailable) => a_last (abs_ms s) < i
  | _ => False
  end.
Proof.
  unfold ms_term, a_last. cbn [abs_ms a_base a_ents].
  destruct (N.ltb_spec i (ms_dummy_index s)); [assumption|].
  destruct (N.leb_spec (nlen (ms_ents s) + 1) (i - ms_dummy_index s)); [lia|].
  destruct (N.eqb_spec i (ms_dummy_index s)) as [->|NE]; [split; [lia|apply a_term_base; reflexivity]|].
  rewrite nnth_nth, <- (a_at_nth (abs_ms s)) by (cbn [abs_ms a_base]; lia).
  rewrite (a_term_at (abs_ms s)) by exact NE.
  destruct (a_at (abs_ms s) i) eqn:E; [split; [lia|reflexivity]|].
  apply a_at_none in E. unfold a_last in E. cbn [abs_ms a_base a_ents] in E. lia.
Qed.

Lemma ms_term_in s i : ms_dummy_index s <= i <= ms_last_index s -> a_term (abs_ms s) i = Some (fst (ms_term s i)).
Proof.
  intros R. pose proof (ms_term_refines s i) as T. unfold a_last, ms_last_index in *. cbn [abs_ms a_base a_ents] in T.
  destruct (ms_term s i) as [t []]; try contradiction; try lia. exact (proj2 T).
Qed.

Lemma ms_first_last s : ms_first_index s = a_first (abs_ms s) /\ ms_last_index s = a_last (abs_ms s).
Proof. split; reflexivity. Qed.

Lemma ms_entries_cases s lo hi maxSize es e :
  ms_entries s lo hi maxSize = Ok (es, e) ->
  e = ErrCompacted /\ lo <= ms_dummy_index s \/
  ms_dummy_index s < lo /\
  (e = ErrUnavailable /\ ms_ents s = [] \/ e = ENone /\ es = limit_size (a_range (abs_ms s) lo hi) maxSize).
Proof.
  unfold ms_entries, a_range, abs_ms. cbn. intros H.
  destruct (N.leb_spec lo (ms_dummy_index s)); [inversion H; auto|].
  destruct (_ <? hi); [discriminate|]. destruct (hi <? lo); [discriminate|]. right. split; [assumption|].
  destruct (ms_ents s) eqn:E; inversion H; [auto|]. rewrite <- E, ntake_firstn, ndrop_skipn. auto.
Qed.

(* Entries(lo, hi, max): ErrCompacted iff lo <= base; otherwise (inside the log) a non-empty
   prefix, limited in size, of the abstract range *)
Theorem ms_entries_refines s lo hi maxSize es e :
  ms_entries s lo hi maxSize = Ok (es, e) ->
  (e = ErrCompacted <-> lo <= a_base (abs_ms s)) /\
  (e = ENone -> es = limit_size (a_range (abs_ms s) lo hi) maxSize) /\
  (e = ErrUnavailable -> a_ents (abs_ms s) = []).
Proof.
  intros H. cbn [abs_ms a_base a_ents].
  destruct (ms_entries_cases _ _ _ _ _ _ H) as [(-> & L)|(L & [(-> & E)|(-> & E)])];
    repeat split; try discriminate; try lia; auto.
Qed.


Lemma ms_apply_snapshot_refines s snap s' e :
  ms_apply_snapshot s snap = (s', e) ->
  (e = ErrSnapOutOfDate -> s' = s /\ s_index (ms_snapshot s) <> 0 /\ s_index snap <= s_index (ms_snapshot s)) /\
  (e = ENone -> abs_ms s' = mkAbs (s_index snap) (s_term snap) [] /\ ms_snapshot s' = snap /\ ms_wf s') /\
  (e = ENone \/ e = ErrSnapOutOfDate).
Proof.
  unfold ms_apply_snapshot. intros H.
  destruct (negb (N.eqb (s_index (ms_snapshot s)) 0) && (s_index snap <=? s_index (ms_snapshot s))) eqn:C;
    inversion H; subst; clear H.
  - bool_to_prop. repeat split; try discriminate; auto.
  - repeat split; try discriminate; auto; exact I.
Qed.

Lemma ms_compact_refines s ci s' e :
  ms_wf s -> ms_compact s ci = Ok (s', e) ->
  (e = ErrCompacted <-> ci <= a_base (abs_ms s)) /\
  (e = ErrCompacted -> s' = s) /\
  (e = ENone -> ms_wf s' /\ a_base (abs_ms s') = ci /\
                a_term (abs_ms s) ci = Some (a_base_term (abs_ms s')) /\
                a_ents (abs_ms s') = skipn (N.to_nat (ci - a_base (abs_ms s))) (a_ents (abs_ms s)) /\
                ms_snapshot s' = ms_snapshot s /\ ms_hardstate s' = ms_hardstate s).
Proof.
  unfold ms_compact. intros W H. cbn [abs_ms a_base a_ents a_base_term].
  destruct (N.leb_spec ci (ms_dummy_index s)).
  { inversion H; subst. repeat split; try discriminate; auto. }
  destruct (N.ltb_spec (ms_last_index s) ci); [discriminate|]. inversion H; subst; clear H.
  cbn [ms_with_ents ms_dummy_index ms_dummy_term ms_ents ms_snapshot ms_hardstate]. rewrite ndrop_skipn.
  repeat split; try discriminate; try lia.
  - unfold ms_wf, a_wf. cbn [abs_ms a_base a_ents].
    replace (ci - ms_dummy_index s) with (ci + 1 - (ms_dummy_index s + 1)) by lia.
    apply contig_skipn_to; [lia|exact W].
  - apply ms_term_in. lia.
Qed.

Lemma ms_append_abs s e0 rest s' :
  ms_append s (e0 :: rest) = Ok s' ->
  let kept := skipn (N.to_nat (ms_first_index s - e_index e0)) (e0 :: rest) in
  abs_ms s' = a_truncate_append (abs_ms s) kept /\
  ms_snapshot s' = ms_snapshot s /\ ms_hardstate s' = ms_hardstate s /\
  (forall f0 fr, kept = f0 :: fr -> e_index f0 <= a_last (abs_ms s) + 1).
Proof.
  intros H kept. unfold ms_append in H.
  destruct (N.ltb_spec (e_index e0 + nlen (e0 :: rest) - 1) (ms_first_index s)) as [LT|_].
  { replace kept with (@nil entry) by (symmetry; apply skipn_all2; rewrite length_nlen; lia).
    inversion H. repeat split. discriminate. }
  replace (if e_index e0 <? ms_first_index s then _ else _) with kept in H.
  2:{ symmetry. destruct (N.ltb_spec (e_index e0) (ms_first_index s)); [apply ndrop_skipn|].
      unfold kept. replace (ms_first_index s - e_index e0) with 0 by lia. reflexivity. }
  clearbody kept. destruct kept as [|f0 fr]; [inversion H; repeat split; discriminate|].
  unfold a_last. cbn [a_truncate_append abs_ms a_base a_base_term a_ents].
  destruct (N.ltb_spec (e_index f0 - ms_dummy_index s) (nlen (ms_ents s) + 1)).
  - inversion H. rewrite ntake_firstn. repeat split. intros f1 fr1 E. inversion E; subst f1. lia.
  - destruct (N.eqb_spec (nlen (ms_ents s) + 1) (e_index f0 - ms_dummy_index s)); [|discriminate].
    inversion H. rewrite firstn_all2 by (rewrite length_nlen; lia). repeat split. intros f1 fr1 E. inversion E; subst f1. lia.
Qed.

(* Append: entries below the first index are dropped; then truncate-and-append; a gap is an
   assertion failure *)
Theorem ms_append_refines s ents s' :
  ms_wf s -> (forall e0 rest, ents = e0 :: rest -> contig (e_index e0) ents) ->
  ms_append s ents = Ok s' ->
  ms_wf s' /\ a_base (abs_ms s') = a_base (abs_ms s) /\ a_base_term (abs_ms s') = a_base_term (abs_ms s) /\
  ms_snapshot s' = ms_snapshot s /\ ms_hardstate s' = ms_hardstate s /\
  (forall e0 rest, ents = e0 :: rest -> a_first (abs_ms s) <= e_index e0 ->
     abs_ms s' = a_truncate_append (abs_ms s) ents).
Proof.
  intros W C H. destruct ents as [|e0 rest].
  { inversion H; subst. repeat split; auto; intros; discriminate. }
  specialize (C e0 rest eq_refl).
  apply (contig_skipn _ _ (N.to_nat (ms_first_index s - e_index e0))) in C.
  destruct (ms_append_abs _ _ _ _ H) as (A & SN & HS & L).
  unfold ms_wf. rewrite A. repeat split; try assumption; try apply a_truncate_append_base.
  - destruct (skipn _ (e0 :: rest)) as [|f0 fr]; [exact W|]. specialize (L f0 fr eq_refl).
    rewrite a_truncate_append_splice. pose proof (proj1 C) as F0. rewrite <- F0 in C.
    apply a_splice_wf; [unfold ms_first_index in F0; cbn [abs_ms a_base]; lia|exact W|exact C].
  - intros e1 r1 E F. inversion E; subst e1 r1. unfold a_first, ms_first_index in *. cbn [abs_ms a_base] in F.
    replace (ms_dummy_index s + 1 - e_index e0) with 0 by lia. reflexivity.
Qed.

Lemma ms_set_hardstate_abs s h : abs_ms (ms_set_hardstate s h) = abs_ms s /\ ms_snapshot (ms_set_hardstate s h) = ms_snapshot s.
Proof. split; reflexivity. Qed.

Lemma ms_create_snapshot_refines s i cs data s' snap e :
  ms_create_snapshot s i cs data = Ok (s', snap, e) ->
  abs_ms s' = abs_ms s /\
  (e = ErrSnapOutOfDate <-> i <= s_index (ms_snapshot s)) /\
  (e = ErrSnapOutOfDate -> s' = s /\ snap = None) /\
  (e = ENone -> a_base (abs_ms s) <= i <= a_last (abs_ms s) /\
                snap = Some (ms_snapshot s') /\ s_index (ms_snapshot s') = i /\
                a_term (abs_ms s) i = Some (s_term (ms_snapshot s'))).
Proof.
  unfold ms_create_snapshot. intros H.
  destruct (N.leb_spec i (s_index (ms_snapshot s))).
  { inversion H; subst. repeat split; try discriminate; auto. }
  destruct (N.ltb_spec (ms_last_index s) i); [discriminate|].
  destruct (N.ltb_spec i (ms_dummy_index s)); [discriminate|].
  inversion H; subst; clear H. repeat split; try discriminate; try lia; auto.
  apply ms_term_in. lia.
Qed.


Definition u_wf (u : unstable) : Prop :=
  contig (u_offset u) (u_entries u) /\
  u_offset u <= u_offset_in_progress u <= u_offset u + nlen (u_entries u) /\
  match u_snapshot u with Some s => s_index s + 1 <= u_offset u | None => True end.

Lemma u_maybe_term_spec u i : u_wf u ->
  u_maybe_term u i =
    if i <? u_offset u then
      match u_snapshot u with
      | Some s => if N.eqb (s_index s) i then Some (s_term s) else None
      | None => None
      end
    else match nth_error (u_entries u) (N.to_nat (i - u_offset u)) with
         | Some e => Some (e_term e)
         | None => None
         end.
Proof.
  unfold u_wf, u_maybe_term, u_maybe_last_index. intros (C & O & S).
  destruct (N.ltb_spec i (u_offset u)) as [LT|GE]; [reflexivity|].
  destruct (u_entries u) as [|e0 es] eqn:UE.
  - destruct (N.to_nat (i - u_offset u)); cbn [nth_error];
      (destruct (u_snapshot u) as [s|]; [destruct (N.ltb_spec (s_index s) i); [reflexivity|lia]|reflexivity]).
  - destruct (N.ltb_spec (u_offset u + nlen (e0 :: es) - 1) i) as [AB|IN]; [|rewrite nnth_nth; reflexivity].
    destruct (nth_error (e0 :: es) (N.to_nat (i - u_offset u))) eqn:NE; [|reflexivity].
    apply nth_error_nlen in NE. lia.
Qed.

Lemma u_slice_spec u lo hi es :
  u_wf u -> u_slice u lo hi = Ok es ->
  lo <= hi /\ u_offset u <= lo /\ hi <= u_offset u + nlen (u_entries u) /\
  es = firstn (N.to_nat (hi - lo)) (skipn (N.to_nat (lo - u_offset u)) (u_entries u)) /\
  contig lo es /\ nlen es = hi - lo.
Proof.
  unfold u_slice, u_wf. intros (C & O & S) H.
  destruct (N.ltb_spec hi lo); [discriminate|].
  destruct (N.ltb_spec lo (u_offset u)); [discriminate|].
  destruct (N.ltb_spec (u_offset u + nlen (u_entries u)) hi); [discriminate|]. cbn in H.
  inversion H; subst; clear H. rewrite ntake_firstn, ndrop_skipn.
  repeat split; try lia.
  - apply contig_firstn, contig_skipn_to; assumption.
  - rewrite nlen_firstn, nlen_skipn. lia.
Qed.

(* truncateAndAppend keeps the unstable log well formed; the result holds the old entries
   below the first new index followed by the new ones *)
Theorem u_truncate_and_append_wf u ents u' e0 rest :
  u_wf u -> ents = e0 :: rest -> contig (e_index e0) ents ->
  (match u_snapshot u with Some s => s_index s < e_index e0 | None => True end) ->
  e_index e0 <= u_offset u + nlen (u_entries u) ->
  u_truncate_and_append u ents = Ok u' ->
  u_wf u' /\ u_snapshot u' = u_snapshot u /\ u_snapshot_in_progress u' = u_snapshot_in_progress u /\
  u_offset u' = N.min (u_offset u) (e_index e0) /\
  u_entries u' = firstn (N.to_nat (e_index e0 - u_offset u)) (u_entries u) ++ ents /\
  u_offset_in_progress u' = N.min (u_offset_in_progress u) (e_index e0).
Proof.
  unfold u_truncate_and_append. intros W E C SN LE H. subst ents.
  pose proof W as (CW & OW & SW).
  destruct (N.eqb_spec (e_index e0) (u_offset u + nlen (u_entries u))) as [e|].
  - inversion H; subst; clear H. unfold u_wf. cbn.
    rewrite firstn_all2 by (rewrite length_nlen; lia). repeat split; try lia.
    + apply contig_app. split; [exact CW|]. rewrite <- e. exact C.
    + rewrite nlen_app. lia.
    + exact SW.
  - destruct (N.leb_spec (e_index e0) (u_offset u)).
    + inversion H; subst; clear H. unfold u_wf. cbn.
      replace (N.to_nat (e_index e0 - u_offset u)) with 0%nat by lia. cbn.
      repeat split; try lia; try exact C; try (apply C).
      destruct (u_snapshot u); [lia|trivial].
    + destruct (u_slice u (u_offset u) (e_index e0)) as [keep|] eqn:K; cbn [bind] in H; [|discriminate].
      inversion H; subst; clear H.
      destruct (u_slice_spec _ _ _ _ W K) as (_ & _ & _ & KE & KC & KL).
      rewrite N.sub_diag in KE. cbn [N.to_nat skipn] in KE.
      unfold u_wf. cbn. rewrite <- KE.
      repeat split; try lia.
      * apply contig_app. split; [exact KC|]. rewrite KL.
        replace (u_offset u + (e_index e0 - u_offset u)) with (e_index e0) by lia. exact C.
      * rewrite nlen_app, KL. lia.
      * exact SW.
Qed.

(* stableTo only drops a prefix that matches (index, term); anything else is ignored *)
Theorem u_stable_to_spec u index term :
  u_wf u ->
  let u' := u_stable_to u index term in
  u_wf u' /\ u_snapshot u' = u_snapshot u /\
  (u' = u \/
   (u_offset u <= index /\
    (exists e, nth_error (u_entries u) (N.to_nat (index - u_offset u)) = Some e /\ e_term e = term) /\
    u_offset u' = index + 1 /\
    u_entries u' = skipn (N.to_nat (index + 1 - u_offset u)) (u_entries u) /\
    u_offset_in_progress u' = N.max (u_offset_in_progress u) (index + 1))).
Proof.
  intros W. cbv zeta. pose proof W as (CW & OW & SW).
  unfold u_stable_to. rewrite (u_maybe_term_spec u index W).
  destruct (N.ltb_spec index (u_offset u)).
  { destruct (u_snapshot u) as [s|] eqn:SN; [destruct (N.eqb (s_index s) index)|]; auto. }
  destruct (nth_error (u_entries u) (N.to_nat (index - u_offset u))) as [e|] eqn:NE; [|auto].
  destruct (N.eqb_spec (e_term e) term); cbn [negb]; [|auto].
  rewrite ndrop_skipn. unfold u_wf. cbn.
  apply nth_error_nlen in NE.
  split; [|split; [reflexivity|]].
  - repeat split; try lia.
    + apply contig_skipn_to; [lia|exact CW].
    + rewrite nlen_skipn. lia.
    + destruct (u_snapshot u); [lia|trivial].
  - right. repeat split; try lia. exists e. split; [reflexivity|assumption].
Qed.

Lemma u_restore_wf s : u_wf (u_restore s).
Proof. unfold u_wf, u_restore. cbn. change (nlen []) with 0. repeat split; lia. Qed.

Lemma last_opt_index i es e : contig i es -> last_opt es = Some e -> e_index e + 1 = i + nlen es.
Proof.
  unfold last_opt. intros C L. destruct (rev es) as [|x xs] eqn:R; [discriminate|]. inversion L; subst.
  assert (E : es = rev xs ++ [e]) by (rewrite <- (rev_involutive es), R; reflexivity).
  subst es. apply contig_app in C. destruct C as [_ [C _]]. rewrite nlen_app, nlen_cons. change (nlen []) with 0. lia.
Qed.

Lemma u_accept_in_progress_wf u : u_wf u -> u_wf (u_accept_in_progress u) /\
  u_entries (u_accept_in_progress u) = u_entries u /\ u_offset (u_accept_in_progress u) = u_offset u.
Proof.
  unfold u_wf, u_accept_in_progress. intros (C & O & S). cbn. repeat split; auto;
    (destruct (last_opt (u_entries u)) as [e|] eqn:L; [|lia]); pose proof (last_opt_index _ _ _ C L); lia.
Qed.

Lemma fold_size_acc (f : entry -> N) es : forall a, fold_left (fun s e => s + f e) es a = a + fold_left (fun s e => s + f e) es 0.
Proof.
  induction es as [|e es IH]; intros a; cbn [fold_left]; [rewrite N.add_0_r; reflexivity|].
  rewrite IH. rewrite (IH (0 + f e)). rewrite N.add_0_l, N.add_assoc. reflexivity.
Qed.

Lemma ents_size_nil : ents_size [] = 0.
Proof. reflexivity. Qed.

Lemma ents_size_cons e es : ents_size (e :: es) = entry_size e + ents_size es.
Proof.
  unfold ents_size. cbn [fold_left]. rewrite (fold_size_acc entry_size es (0 + entry_size e)).
  rewrite N.add_0_l. reflexivity.
Qed.

Lemma ents_size_app a b : ents_size (a ++ b) = ents_size a + ents_size b.
Proof.
  induction a as [|e a IH]; [rewrite ents_size_nil, N.add_0_l; reflexivity|].
  cbn [app]. rewrite !ents_size_cons, IH. rewrite N.add_assoc. reflexivity.
Qed.

Lemma limit_loop_spec rest : forall acc size maxSize,
  size = ents_size (rev acc) ->
  exists k, limit_loop acc size rest maxSize = rev acc ++ firstn k rest /\
            (ents_size (rev acc ++ firstn k rest) <= maxSize \/ k = 0%nat).
Proof.
  induction rest as [|e rest IH]; intros acc size maxSize Hs; cbn [limit_loop].
  - exists 0%nat. rewrite app_nil_r. split; [reflexivity|right; reflexivity].
  - destruct (N.ltb_spec maxSize (size + entry_size e)) as [Hlt|Hge].
    + exists 0%nat. cbn [firstn]. rewrite app_nil_r. split; [reflexivity|right; reflexivity].
    + destruct (IH (e :: acc) (size + entry_size e) maxSize) as [k [Hk Hf]].
      { cbn [rev]. rewrite ents_size_app, ents_size_cons, ents_size_nil. lia. }
      exists (S k). cbn [rev firstn] in *. rewrite <- app_assoc in Hk, Hf. cbn [app] in Hk, Hf.
      split; [exact Hk|]. left. destruct Hf as [Hf|Hf]; [exact Hf|].
      subst k. cbn [firstn]. rewrite ents_size_app, ents_size_cons, ents_size_nil. lia.
Qed.

Lemma limit_size_prefix es maxSize : exists k,
  limit_size es maxSize = firstn k es /\ (es <> [] -> k <> 0%nat) /\
  (ents_size (firstn k es) <= maxSize \/ (k <= 1)%nat).
Proof.
  destruct es as [|e rest]; [exists 0%nat; repeat split; [congruence|right; lia]|]. unfold limit_size.
  destruct (limit_loop_spec rest [e] (entry_size e) maxSize) as [k [Hk Hf]].
  { cbn [rev app]. rewrite ents_size_cons, ents_size_nil. lia. }
  exists (S k). repeat split; [exact Hk|lia|]. destruct Hf as [Hf|Hf]; [left; exact Hf|right; lia].
Qed.

Lemma limit_size_contig i es maxSize : contig i es -> contig i (limit_size es maxSize).
Proof. intros C. destruct (limit_size_prefix es maxSize) as (k & -> & _). apply contig_firstn. exact C. Qed.

Lemma limit_size_len es maxSize : nlen (limit_size es maxSize) <= nlen es.
Proof. destruct (limit_size_prefix es maxSize) as (k & -> & _). rewrite nlen_firstn. lia. Qed.

Lemma limit_size_nth es maxSize k e : nth_error (limit_size es maxSize) k = Some e -> nth_error es k = Some e.
Proof.
  destruct (limit_size_prefix es maxSize) as (n & -> & _). intros H.
  rewrite nth_error_firstn in H; [exact H|]. apply nth_error_nlen in H. rewrite nlen_firstn in H. lia.
Qed.

(* what slice(lo, hi, maxSize) returns, by where [lo, hi) lies relative to the unstable offset:
   from the unstable entries only, from storage only, or a complete storage part [se] followed
   by unstable entries within what is left of the budget *)
Inductive slice_shape (st : memstorage) (u : unstable) (lo hi maxSize : N) : list entry -> Prop :=
| slice_unstable us :
    u_offset u <= lo -> u_slice u lo hi = Ok us -> slice_shape st u lo hi maxSize (limit_size us maxSize)
| slice_stable :
    ms_dummy_index st < lo < u_offset u ->
    slice_shape st u lo hi maxSize (limit_size (a_range (abs_ms st) lo (N.min hi (u_offset u))) maxSize)
| slice_both se us :
    ms_dummy_index st < lo < u_offset u -> u_offset u < hi ->
    se = limit_size (a_range (abs_ms st) lo (u_offset u)) maxSize ->
    nlen se = u_offset u - lo -> ents_size se < maxSize ->
    u_slice u (u_offset u) hi = Ok us ->
    (nlen (limit_size us (maxSize - ents_size se)) = 1 ->
       ents_size se + ents_size (limit_size us (maxSize - ents_size se)) <= maxSize) ->
    slice_shape st u lo hi maxSize (se ++ limit_size us (maxSize - ents_size se)).

Lemma l_slice_shape st l lo hi maxSize es e :
  l_slice st l lo hi maxSize = Ok (es, e) ->
  es = [] \/ e = ENone /\ l_first_index st l <= lo /\ slice_shape st (l_unstable l) lo hi maxSize es.
Proof.
  unfold l_slice, l_must_check_out_of_bounds. intros H.
  destruct (hi <? lo); [discriminate|].
  destruct (N.ltb_spec lo (l_first_index st l)) as [|FI]; [inversion H; left; reflexivity|].
  destruct (_ <? hi); [discriminate|]. cbn [bind] in H.
  destruct (N.eqb lo hi); [inversion H; left; reflexivity|].
  destruct (N.leb_spec (u_offset (l_unstable l)) lo) as [UL|UL].
  { destruct (u_slice (l_unstable l) lo hi) as [us|] eqn:EU; cbn [bind] in H; [|discriminate].
    inversion H. right. repeat split; [exact FI|]. apply slice_unstable; assumption. }
  destruct (ms_entries st lo (N.min hi (u_offset (l_unstable l))) maxSize) as [[se ee]|] eqn:EM; cbn [bind] in H; [|discriminate].
  destruct (ms_entries_cases _ _ _ _ _ _ EM) as [(-> & _)|(LB & [(-> & _)|(-> & RM)])];
    [inversion H; left; reflexivity|discriminate|].
  assert (ST : slice_shape st (l_unstable l) lo hi maxSize se) by (rewrite RM; apply slice_stable; lia).
  destruct (N.leb_spec hi (u_offset (l_unstable l))) as [|HU]; [inversion H; subst es e; auto|].
  rewrite N.min_r in * by lia.
  destruct (N.ltb_spec (nlen se) (u_offset (l_unstable l) - lo)) as [|LS]; [inversion H; subst es e; auto|].
  destruct (N.leb_spec maxSize (ents_size se)); [inversion H; subst es e; auto|].
  destruct (u_slice (l_unstable l) (u_offset (l_unstable l)) hi) as [us|] eqn:EU; cbn [bind] in H; [|discriminate].
  destruct (_ && _) eqn:ONE; inversion H; subst es e; [auto|]. right. repeat split; [exact FI|].
  apply slice_both; try assumption; try lia.
  - pose proof (limit_size_len (a_range (abs_ms st) lo (u_offset (l_unstable l))) maxSize).
    pose proof (a_range_len (abs_ms st) lo (u_offset (l_unstable l))). rewrite <- RM in *. lia.
  - intros L1. rewrite L1 in ONE. cbn [N.eqb Pos.eqb andb] in ONE. apply N.ltb_ge in ONE. exact ONE.
Qed.

(* slice(lo, hi, max) returns consecutive entries starting at lo, at most hi - lo of them *)
Theorem l_slice_contig st l lo hi maxSize es :
  ms_wf st -> u_wf (l_unstable l) ->
  l_slice st l lo hi maxSize = Ok (es, ENone) ->
  contig lo es /\ nlen es <= hi - lo.
Proof.
  intros WS WU H. destruct (l_slice_shape _ _ _ _ _ _ _ H) as [->|(_ & _ & SH)]; [split; [exact I|apply N.le_0_l]|].
  destruct SH as [us UL EU|LB|se us LB HU -> LS _ EU _].
  - destruct (u_slice_spec _ _ _ _ WU EU) as (_ & _ & _ & _ & C & L).
    split; [apply limit_size_contig; exact C|]. pose proof (limit_size_len us maxSize). lia.
  - split; [apply limit_size_contig, a_range_contig; [exact WS|apply LB]|].
    pose proof (limit_size_len (a_range (abs_ms st) lo (N.min hi (u_offset (l_unstable l)))) maxSize).
    pose proof (a_range_len (abs_ms st) lo (N.min hi (u_offset (l_unstable l)))). lia.
  - destruct (u_slice_spec _ _ _ _ WU EU) as (_ & _ & _ & _ & C & L). split.
    + apply contig_app. split; [apply limit_size_contig, a_range_contig; [exact WS|apply LB]|].
      rewrite LS. replace (lo + (u_offset (l_unstable l) - lo)) with (u_offset (l_unstable l)) by lia.
      apply limit_size_contig. exact C.
    + rewrite nlen_app, LS. pose proof (limit_size_len us (maxSize - ents_size (limit_size (a_range (abs_ms st) lo (u_offset (l_unstable l))) maxSize))). lia.
Qed.

(* nextCommittedEnts: nothing while paused or while a snapshot is pending; otherwise
   consecutive entries starting right after the applying cursor and not beyond commit; without
   permission to apply unstable entries, nothing at or beyond the unstable offset *)
Theorem l_next_committed_ents_spec st l allow es :
  ms_wf st -> u_wf (l_unstable l) -> 1 <= u_offset (l_unstable l) < two64 ->
  l_next_committed_ents st l allow = Ok es ->
  (l_applying_paused l = true -> es = []) /\
  (u_snapshot (l_unstable l) <> None -> es = []) /\
  contig (l_applying l + 1) es /\
  (es <> [] -> l_applying l + nlen es <= l_committed l) /\
  (allow = false -> es <> [] -> l_applying l + nlen es < u_offset (l_unstable l)).
Proof.
  intros WS WU OB H. unfold l_next_committed_ents in H.
  match goal with |- ?G => assert (NIL : Ok [] = Ok es -> G) end.
  { intros E. inversion E. repeat split; auto; intros; congruence. }
  destruct (l_applying_paused l) eqn:P; [exact (NIL H)|].
  unfold l_has_next_or_in_progress_snapshot in H.
  destruct (u_snapshot (l_unstable l)) eqn:S; [exact (NIL H)|].
  assert (MA : l_max_appliable l allow <= l_committed l /\
               (allow = false -> l_max_appliable l allow <= u_offset (l_unstable l) - 1)).
  { unfold l_max_appliable. destruct allow; split; try lia; try discriminate; intros _; rewrite sub64_small by lia; lia. }
  destruct MA as [MA1 MA2].
  destruct (N.leb_spec (l_max_appliable l allow + 1) (l_applying l + 1)); [exact (NIL H)|].
  destruct (N.eqb _ 0); [discriminate|].
  destruct (l_slice st l (l_applying l + 1) (l_max_appliable l allow + 1) _) as [[es' e]|] eqn:SL; cbn [bind] in H; [|discriminate].
  destruct e; try discriminate. inversion H; subst; clear H.
  destruct (l_slice_contig _ _ _ _ _ _ WS WU SL) as [C L].
  repeat split; auto; try discriminate; try congruence; try lia.
  intros A _. specialize (MA2 A). lia.
Qed.
