(* NodeSteps.v: what one input of [node_step] does to the node, by cases: a storage write, a
   start, a stop, or one RawNode call of the running incarnation; what each call runs of raft.go;
   what a start (newRaft) builds. *)
From Coq Require Import List NArith Bool Lia.
From RaftV Require Import Base Types Quorum Progress Tracker Storage Log Raft RawNode Tactics RaftSteps.
Import ListNotations.
Open Scope N_scope.

(* the message types the RawNode API steps on behalf of its caller *)
Definition api_type (t : msg_type) : bool :=
  match t with
  | MsgHup | MsgProp | MsgUnreachable | MsgSnapStatus | MsgTransferLeader | MsgForgetLeader | MsgReadIndex => true
  | _ => false
  end.

Definition api_input (i : ninput) : bool :=
  match i with
  | ICampaign | IPropose _ | IProposeCC _ | IReportUnreachable _ | IReportSnapshot _ _
  | ITransferLeader _ | IForgetLeader | IReadIndex _ => true
  | _ => false
  end.

Section WithStorage.
Variable st : memstorage.

(* Advance steps what the last Ready queued, one message after the other *)
Lemma step_all_in (R : raft -> raft -> Prop) ms :
  (forall r, R r r) -> (forall a b c, R a b -> R b c -> R a c) ->
  (forall m r r', In m ms -> steps st m r r' -> R r r') ->
  forall r r', step_all st r ms = Ok r' -> R r r'.
Proof.
  intros Rr Rt. induction ms as [|m ms IH]; intros RS r r' H; cbn in H; [inversion H; apply Rr|].
  apply bind_ok in H. destruct H as ([r1 e1] & ES & H).
  eapply Rt; [eapply RS; [left; reflexivity|eapply step_steps; exact ES]|].
  revert H. apply IH. intros m0 a b I. apply RS. right. exact I.
Qed.

(* one call of the RawNode API on the running incarnation *)
Inductive rn_call (i : ninput) (out : noutput) (rn : rawnode) : rawnode -> Prop :=
| C_tick rn' : i = ITick -> out = ONone -> rn_tick st rn = Ok rn' -> rn_call i out rn rn'
| C_quiesced : i = ITickQuiesced -> out = ONone -> rn_call i out rn (rn_tick_quiesced rn)
| C_step m rn' e : i = IStep m -> out = OErr e -> rn_step st rn m = Ok (rn', e) -> rn_call i out rn rn'
| C_api m rn' e :
    api_input i = true -> out = OErr e -> api_type (m_type m) = true -> m_term m = 0 ->
    rn_raft_step st rn m = Ok (rn', e) -> rn_call i out rn rn'
| C_apply_cc cc rn' cs :
    i = IApplyCC cc -> out = OConfState cs -> rn_apply_conf_change st rn cc = Ok (rn', cs) -> rn_call i out rn rn'
| C_ready rn' rd : i = IReady -> out = OReady rd -> rn_ready st rn = Ok (rn', rd) -> rn_call i out rn rn'
| C_has_ready : i = IHasReady -> out = OBool (has_ready rn) -> rn_call i out rn rn
| C_advance rn' : i = IAdvance -> out = ONone -> rn_advance st rn = Ok rn' -> rn_call i out rn rn'.

Lemma rn_tick_ok rn rn' :
  rn_tick st rn = Ok rn' -> exists r, tick st (rn_raft rn) = Ok r /\ rn' = rn_with_raft rn r.
Proof.
  unfold rn_tick. intros H. apply bind_ok in H. destruct H as (r & E & H). injection H as <-. eauto.
Qed.

Lemma rn_raft_step_ok rn m rn' e :
  rn_raft_step st rn m = Ok (rn', e) ->
  exists r, step st (rn_raft rn) m = Ok (r, e) /\ rn' = rn_with_raft rn r.
Proof.
  unfold rn_raft_step. intros H. apply bind_ok in H. destruct H as ([r e1] & E & H).
  injection H as <- <-. eauto.
Qed.

(* RawNode.Step refuses some messages before raft.go sees them *)
Lemma rn_step_ok rn m rn' e :
  rn_step st rn m = Ok (rn', e) -> rn' = rn \/ rn_raft_step st rn m = Ok (rn', e).
Proof.
  unfold rn_step. intros H. destruct (_ && _); [injection H as <- _; auto|].
  destruct (_ && _); [injection H as <- _; auto|]. right. exact H.
Qed.

Lemma rn_apply_conf_change_ok rn cc rn' cs :
  rn_apply_conf_change st rn cc = Ok (rn', cs) ->
  exists r, apply_conf_change_raft st (rn_raft rn) cc = Ok (r, cs) /\ rn' = rn_with_raft rn r.
Proof.
  unfold rn_apply_conf_change. intros H. apply bind_ok in H. destruct H as ([r c] & E & H).
  injection H as <- <-. eauto.
Qed.

Lemma rn_advance_ok rn rn' :
  rn_advance st rn = Ok rn' ->
  exists r, step_all st (rn_raft rn) (rn_steps_on_advance rn) = Ok r /\
            rn' = mkRN r (rn_async rn) (rn_prev_soft rn) (rn_prev_hard rn) [].
Proof.
  unfold rn_advance. intros H. destruct (rn_async rn); [discriminate|].
  apply bind_ok in H. destruct H as (r & E & H). injection H as <-. eauto.
Qed.

Lemma rn_ready_ok rn rn' rd :
  rn_ready st rn = Ok (rn', rd) -> ready_without_accept st rn = Ok rd /\ accept_ready st rn rd = Ok rn'.
Proof.
  unfold rn_ready. intros H. apply bind_ok in H. destruct H as (rd0 & E & H).
  apply bind_ok in H. destruct H as (rn0 & EA & H). injection H as <- <-. auto.
Qed.

Lemma rn_call_ready i rd rn rn' : rn_call i (OReady rd) rn rn' -> rn_ready st rn = Ok (rn', rd).
Proof.
  intros C. destruct C as [| | | | |rn' rd0 _ O H| |]; try discriminate. injection O as ->. exact H.
Qed.

Lemma rn_call_in (R : raft -> raft -> Prop) :
  (forall r, R r r) -> (forall a b c, R a b -> R b c -> R a c) ->
  (forall m r r', steps st m r r' -> R r r') -> (forall r r', tick st r = Ok r' -> R r r') ->
  (forall rn, R (rn_raft rn) (rn_raft (rn_tick_quiesced rn))) ->
  (forall rn rd rn', accept_ready st rn rd = Ok rn' -> R (rn_raft rn) (rn_raft rn')) ->
  forall i out rn rn', rn_call i out rn rn' -> R (rn_raft rn) (rn_raft rn').
Proof.
  intros Rr Rt RS RT RQ RA i out rn rn' C.
  assert (RRS : forall m rn' e, rn_raft_step st rn m = Ok (rn', e) -> R (rn_raft rn) (rn_raft rn')).
  { intros m x e H. destruct (rn_raft_step_ok _ _ _ _ H) as (r & E & ->). exact (RS _ _ _ (step_steps _ _ _ _ _ E)). }
  destruct C as [rn' _ _ H|_ _|m rn' e _ _ H|m rn' e _ _ _ _ H|cc rn' cs _ _ H|rn' rd _ _ H|_ _|rn' _ _ H].
  - destruct (rn_tick_ok _ _ H) as (r & E & ->). exact (RT _ _ E).
  - apply RQ.
  - destruct (rn_step_ok _ _ _ _ H) as [->|H1]; [apply Rr|exact (RRS _ _ _ H1)].
  - exact (RRS _ _ _ H).
  - destruct (rn_apply_conf_change_ok _ _ _ _ H) as (r & E & ->).
    exact (RS _ _ _ (apply_conf_change_raft_steps st leave_joint_prop _ _ _ _ E)).
  - exact (RA _ _ _ (proj2 (rn_ready_ok _ _ _ H))).
  - apply Rr.
  - destruct (rn_advance_ok _ _ H) as (r & E & ->). revert E.
    apply step_all_in; [exact Rr|exact Rt|]. intros m a b _. apply RS.
Qed.

End WithStorage.

(* the state newRaft builds from a valid Config, up to what it reads from storage: the hard state,
   the log, and the tracker and learner flag of the restored configuration *)
Definition new_raft_state (c : rconfig) (mu : N) (d : list N) (h : hardstate) (l : raftlog) (t : tracker)
    (lrn : bool) : raft :=
  mkRaft (cfg_id c) (hs_term h) (hs_vote h) [] l (cfg_max_size_per_msg c) mu t StateFollower lrn [] []
         NoneId NoneId 0 (cfg_disable_cc_validation c) 0 (new_readonly (cfg_read_only c))
         0 0 (cfg_check_quorum c) (cfg_pre_vote c) (cfg_heartbeat_tick c)
         (cfg_election_tick c) 0 (cfg_disable_forwarding c) (cfg_step_down_on_removal c) [] d.

(* newRaft: validate gives the limits; the configuration of the storage's snapshot is restored into
   an empty tracker (a follower's switchToConfig only installs it); the hard state is the storage's
   unless that is empty; the log starts at the storage's snapshot, committed up to the hard state,
   applied up to Config.Applied; then the node becomes follower at the term it loaded *)
Lemma new_raft_ok st c d r :
  new_raft st c d = Ok r ->
  exists mu mc mb cfg pm lrn h l,
    validate c = Some (mu, mc, mb) /\
    changer_result (make_tracker (cfg_max_inflight_msgs c) mb) cfg pm /\
    h = (match ms_hardstate st with
         | Some h => if is_empty_hs h then mkHS 0 0 (ms_first_index st - 1) else h
         | None => mkHS 0 0 (ms_first_index st - 1)
         end) /\
    ((cfg_applied c = 0 /\ l = l_with_committed (new_log st mc) (hs_commit h)) \/
     l_applied_to (l_with_committed (new_log st mc) (hs_commit h)) (cfg_applied c) 0 = Ok l) /\
    become_follower st
      (new_raft_state c mu d h l (t_with_config_progress (make_tracker (cfg_max_inflight_msgs c) mb) cfg pm) lrn)
      (hs_term h) NoneId = Ok r.
Proof.
  unfold new_raft. destruct (validate c) as [[[mu mc] mb]|]; [|discriminate].
  unfold ms_initial_state. cbv zeta. intros H.
  apply bind_ok in H. destruct H as (last & _ & H).
  destruct (cc_restore _ _ _) as [[cfg pm]|] eqn:EC; [|discriminate].
  apply bind_ok in H. destruct H as (x & ES & H).
  apply switch_to_config_not_leader in ES; [|discriminate]. destruct ES as [lrn ES].
  destruct (negb _); [discriminate|]. rewrite ES in H. clear ES x.
  apply bind_ok in H. destruct H as (r2 & E2 & H).
  apply bind_ok in H. destruct H as (r3 & E3 & H).
  set (t := t_with_config_progress _ cfg pm) in *.
  pose (h := match ms_hardstate st with
             | Some h => if is_empty_hs h then mkHS 0 0 (ms_first_index st - 1) else h
             | None => mkHS 0 0 (ms_first_index st - 1)
             end).
  assert (R2 : r2 = new_raft_state c mu d h (l_with_committed (new_log st mc) (hs_commit h)) t lrn).
  { subst h. destruct (ms_hardstate st) as [h0|]; [destruct (is_empty_hs h0)|]; try (injection E2 as <-; reflexivity).
    unfold load_state in E2. destruct (_ || _); [discriminate|]. injection E2 as <-. reflexivity. }
  assert (R3 : exists l, ((cfg_applied c = 0 /\ l = l_with_committed (new_log st mc) (hs_commit h)) \/
                          l_applied_to (l_with_committed (new_log st mc) (hs_commit h)) (cfg_applied c) 0 = Ok l) /\
                         r3 = new_raft_state c mu d h l t lrn).
  { rewrite R2 in E3. destruct (0 <? cfg_applied c) eqn:EA.
    - apply bind_ok in E3. destruct E3 as (l & EL & E3). injection E3 as <-. exists l. split; [right; exact EL|reflexivity].
    - injection E3 as <-. apply N.ltb_ge in EA. eexists. split; [left; split; [lia|reflexivity]|reflexivity]. }
  destruct R3 as (l & L & R3). rewrite R3 in H.
  exists mu, mc, mb, cfg, pm, lrn, h, l.
  split; [reflexivity|]. split; [right; eauto|]. split; [reflexivity|]. split; [exact L|exact H].
Qed.

Definition storage_input (i : ninput) : bool :=
  match i with
  | IStAppend _ | IStSetHardState _ | IStApplySnapshot _ | IStCreateSnapshot _ _ _ | IStCompact _ => true
  | _ => false
  end.

Definition storage_output (o : noutput) : bool :=
  match o with ONone | OErr _ | OSnapshot _ _ => true | _ => false end.

Lemma node_step_cases n i d n' out :
  node_step n i d = Ok (n', out) ->
  (((n_rn n = None /\ out = ONotRunning) \/ (storage_input i = true /\ storage_output out = true)) /\
   n_rn n' = n_rn n) \/
  (i = IStop /\ n_rn n' = None /\ n_st n' = n_st n) \/
  (exists c rn, i = INew c /\ new_rawnode (n_st n) c d = Ok rn /\ n_rn n' = Some rn /\ n_st n' = n_st n) \/
  (exists rn rn', n_rn n = Some rn /\ n_rn n' = Some rn' /\ n_st n' = n_st n /\
                  rn_call (n_st n) i out (with_draws rn d) rn').
Proof.
  unfold node_step. intros H.
  destruct i; try (destruct (n_rn n) as [rn|] eqn:R; [|inversion H; subst; left; split; [left; split; reflexivity|exact R]]).
  all: try (match type of H with bind ?x _ = _ => destruct x as [y|] eqn:E; cbn [bind] in H; [|discriminate] end).
  all: try (match type of y with (_ * _)%type => destruct y as [y1 y2] end).
  all: try (match type of y with ((_ * _) * _)%type => destruct y as [[y1 y2] y3] end).
  all: try (match type of H with (let '(_, _) := ?x in _) = _ => destruct x end).
  all: inversion H; subst; clear H; cbn [n_rn n_st fst snd].
  all: try (unfold rn_campaign, rn_propose, rn_propose_cc, rn_report_unreachable, rn_report_snapshot,
            rn_transfer_leader, rn_forget_leader, rn_read_index in E).
  all: try solve [left; split; [right; split; reflexivity|reflexivity]].
  all: try solve [right; right; right; exists rn; eexists; (split; [reflexivity|]);
                  (split; [reflexivity|]); (split; [reflexivity|]);
                  first [ eapply C_tick; [| |exact E]; reflexivity | eapply C_step; [| |exact E]; reflexivity
                        | eapply C_api; [| | | |exact E]; reflexivity | eapply C_apply_cc; [| |exact E]; reflexivity
                        | eapply C_ready; [| |exact E]; reflexivity | apply C_has_ready; reflexivity
                        | eapply C_advance; [| |exact E]; reflexivity ]].
  - right; right; left. eauto 8.
  - right; left. auto.
  - inversion E; subst. right; right; right. exists rn; eexists. repeat (split; [reflexivity|]). apply C_quiesced; reflexivity.
Qed.
