(* RaftMono.v: the hard state of a node (term, vote, commit) only moves forward under every
   function of raft.go, for every input; NodeProps.v carries this to the RawNode API and to node
   histories.  Basis of C07 and of the local halves of C02 (one vote per term) and C06/C09 (commit
   never decreases). *)
From Coq Require Import List NArith Bool Lia.
From RaftV Require Import Base Types Quorum Progress Tracker Storage Log Raft RawNode Tactics RaftSteps.
Import ListNotations.
Open Scope N_scope.

Definition hs_le (a b : hardstate) : Prop :=
  hs_term a <= hs_term b /\ hs_commit a <= hs_commit b /\
  (hs_term a = hs_term b -> hs_vote a = 0 \/ hs_vote b = hs_vote a).

Lemma hs_le_refl a : hs_le a a.
Proof. unfold hs_le. repeat split; lia. Qed.

Lemma hs_le_trans a b c : hs_le a b -> hs_le b c -> hs_le a c.
Proof.
  unfold hs_le. intros (T1 & C1 & V1) (T2 & C2 & V2). repeat split; lia.
Qed.

Definition mono (r r' : raft) : Prop := hs_le (hard_state r) (hard_state r').

Lemma mono_refl r : mono r r.
Proof. apply hs_le_refl. Qed.
Lemma mono_trans a b c : mono a b -> mono b c -> mono a c.
Proof. apply hs_le_trans. Qed.

Lemma mono_fields r r' :
  r_term r <= r_term r' -> l_committed (r_log r) <= l_committed (r_log r') ->
  (r_term r = r_term r' -> r_vote r = 0 \/ r_vote r' = r_vote r) -> mono r r'.
Proof. intros. unfold mono, hs_le, hard_state. cbn. auto. Qed.

Definition same_hs (r r' : raft) : Prop :=
  r_term r' = r_term r /\ r_vote r' = r_vote r /\ l_committed (r_log r') = l_committed (r_log r).

Lemma same_hs_mono r r' : same_hs r r' -> mono r r'.
Proof. intros (T & V & C). apply mono_fields; rewrite ?T, ?V, ?C; auto; lia. Qed.

Ltac same_hs_done := unfold same_hs; cbn; auto.

Lemma clear_recent_active_same r : same_hs r (clear_recent_active r).
Proof. same_hs_done. Qed.

Lemma ro_recv_ack_ok ro from ctx ro' : ro_recv_ack ro from ctx = Ok ro' -> True.
Proof. trivial. Qed.

Definition commit_up (r r' : raft) : Prop :=
  r_term r' = r_term r /\ r_vote r' = r_vote r /\ l_committed (r_log r) <= l_committed (r_log r').

Lemma commit_up_mono r r' : commit_up r r' -> mono r r'.
Proof. intros (T & V & C). apply mono_fields; rewrite ?T, ?V; auto; lia. Qed.
Lemma commit_up_trans a b c : commit_up a b -> commit_up b c -> commit_up a c.
Proof. unfold commit_up. intros (T1 & V1 & C1) (T2 & V2 & C2). repeat split; try congruence; lia. Qed.
Lemma commit_up_refl a : commit_up a a.
Proof. unfold commit_up. repeat split; lia. Qed.

(* Messages that only a leader sends.  raft stamps them with its (non-zero) term in send;
   a term of 0 marks a local message and bypasses the term check at the top of Step, so a
   forged MsgApp with term 0 would reset a candidate's term to 0.  Messages that were sent by
   a raft node satisfy [wf_msg]. *)
Definition from_leader (t : msg_type) : bool :=
  match t with MsgApp | MsgHeartbeat | MsgSnap => true | _ => false end.
Definition wf_msg (m : message) : Prop := from_leader (m_type m) = true -> m_term m <> 0.

(* [prim] states the guard of P_follower by itself: RaftSteps.v does not depend on this file *)
Lemma wf_leader_msg m : wf_msg m -> leader_msg_has_term m.
Proof. unfold wf_msg, leader_msg_has_term, from_leader. destruct (m_type m); auto. Qed.

Lemma wf_leave_joint_prop : wf_msg leave_joint_prop.
Proof. unfold wf_msg. cbn. discriminate. Qed.

Lemma wf_tick_msg m : tick_msg m -> wf_msg m.
Proof. intros (t & id & E & [T|[T|T]]); subst; unfold wf_msg; cbn; discriminate. Qed.

Lemma l_applied_to_committed l i s l' : l_applied_to l i s = Ok l' -> l_committed l' = l_committed l.
Proof. unfold l_applied_to. intros H. inv_ok. reflexivity. Qed.

Lemma l_accept_applying_committed l i s a l' :
  l_accept_applying l i s a = Ok l' -> l_committed l' = l_committed l.
Proof. unfold l_accept_applying. intros H. inv_ok. reflexivity. Qed.

Lemma emits_same r r' : emits r r' -> same_hs r r'.
Proof. intros E. destruct (emits_keeps _ _ E) as (_ & T & V & L & _). unfold same_hs. rewrite L. auto. Qed.

Lemma become_follower_mono st r term lead r' :
  r_term r <= term -> become_follower st r term lead = Ok r' ->
  mono r r' /\ r_term r' = term /\ (r_term r = term -> r_vote r' = r_vote r) /\
  l_committed (r_log r') = l_committed (r_log r).
Proof.
  intros Hle H. destruct (become_follower_eq _ _ _ _ _ H) as (r1 & ER & ->).
  destruct (reset_eq _ _ _ _ ER) as (d & ds & _ & E). rewrite E. cbn.
  split; [|split; [reflexivity|split; [|reflexivity]]].
  - apply mono_fields; cbn; [exact Hle|lia|]. intros ET. rewrite ET, N.eqb_refl. auto.
  - intros ET. rewrite ET, N.eqb_refl. reflexivity.
Qed.

Lemma prim_mono st m r r' : wf_msg m -> prim st m r r' -> mono r r'.
Proof.
  intros WF P. destruct P; try solve [apply same_hs_mono; same_hs_done].
  - apply same_hs_mono, emits_same. one. exact Em.
  - apply mono_fields; cbn; [lia|exact (proj1 Lg)|auto].
  - apply l_applied_to_committed in Ap. apply same_hs_mono. same_hs_done.
  - eapply become_follower_mono; [|exact Bf]. auto using wf_leader_msg.
  - (* a campaign raises the term *)
    destruct (become_candidate_eq _ _ _ Bc) as (r1 & ER & ->).
    destruct (reset_eq _ _ _ _ ER) as (d & ds & _ & E). rewrite E.
    apply mono_fields; cbn; lia.
  - rewrite (become_pre_candidate_eq _ _ Bp). apply same_hs_mono. same_hs_done.
  - destruct (reset_eq _ _ _ _ Rs) as (d & ds & _ & E). rewrite E.
    apply mono_fields; cbn; try lia. rewrite N.eqb_refl. auto.
  - (* the vote goes to the candidate already voted for, or is the first of the term *)
    apply mono_fields; cbn; try lia. intros _. destruct Vo as [V|[V _]]; auto.
Qed.

Lemma steps_mono st m r r' : wf_msg m -> steps st m r r' -> mono r r'.
Proof.
  intros WF. apply steps_in; [exact mono_refl|exact mono_trans| |]; intros a b.
  - apply prim_mono, WF.
  - apply prim_mono, wf_leave_joint_prop.
Qed.

(* Every message a raft node can have sent, of any type, term and content, moves the hard
   state of the receiver forward only. *)
Theorem step_mono st r m r' e : wf_msg m -> step st r m = Ok (r', e) -> mono r r'.
Proof. intros WF H. eapply steps_mono, step_steps; eassumption. Qed.

Theorem tick_mono st r r' : tick st r = Ok r' -> mono r r'.
Proof.
  intros H. apply tick_ticks in H. revert H.
  apply tsteps_in; [exact mono_refl|exact mono_trans|intros; apply same_hs_mono; same_hs_done| |].
  - intros m a b M. apply prim_mono, wf_tick_msg, M.
  - intros a b. apply prim_mono, wf_leave_joint_prop.
Qed.

Lemma restore_mono st r s r' b : restore st r s = Ok (r', b) -> mono r r'.
Proof. intros H. eapply (steps_mono st leave_joint_prop), restore_steps; [exact wf_leave_joint_prop|exact H]. Qed.

Lemma handle_snapshot_mono st r m r' : handle_snapshot st r m = Ok r' -> mono r r'.
Proof.
  intros H. eapply (steps_mono st leave_joint_prop), handle_snapshot_steps; [exact wf_leave_joint_prop|exact H].
Qed.

Lemma apply_conf_change_raft_mono st r cc r' cs :
  apply_conf_change_raft st r cc = Ok (r', cs) -> mono r r'.
Proof.
  intros H. eapply (steps_mono st leave_joint_prop), apply_conf_change_raft_steps; [exact wf_leave_joint_prop|exact H].
Qed.
