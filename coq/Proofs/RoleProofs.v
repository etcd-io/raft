(* RoleProofs.v: a leader knows itself as the leader: in every reachable state
   [r_state r = StateLeader -> r_lead r = r_id r], and the node's id is never 0 (Config.validate).
   Kept by every primitive update of RaftSteps.v, hence by every function of raft.go, by the
   RawNode API and along node histories; established by newRaft.  This discharges the hypothesis
   [r_lead r <> NoneId] of the CheckQuorum theorem (C17) for reachable states.  Three contracts
   that concern a single function each (of C02/C05, C17 and C11) stand at the end of the file. *)
From Coq Require Import List NArith Bool.
From RaftV Require Import Base Types Quorum Progress Tracker Storage Log Raft RawNode Tactics
     RaftSteps NodeSteps NodeProps CheckQuorumProofs.
Import ListNotations.
Open Scope N_scope.

Definition coh (r : raft) : Prop :=
  r_id r <> NoneId /\ (r_state r = StateLeader -> r_lead r = r_id r).

Definition ck (r r' : raft) : Prop := coh r -> coh r'.
Lemma ck_refl r : ck r r.
Proof. unfold ck; auto. Qed.
Lemma ck_trans a b c : ck a b -> ck b c -> ck a c.
Proof. unfold ck; auto. Qed.

Lemma keeps_ck r r' : r_id r' = r_id r -> r_state r' = r_state r -> r_lead r' = r_lead r -> ck r r'.
Proof. unfold ck, coh. intros A B C. rewrite A, B, C. auto. Qed.

Lemma not_leader_ck r r' s :
  r_id r' = r_id r -> r_state r' = s -> s <> StateLeader -> ck r r'.
Proof. intros A B C [I _]. split; [rewrite A; exact I|congruence]. Qed.

Lemma emit_ck r r' : emit r r' -> ck r r'.
Proof. intros E. destruct (emit_keeps _ _ E) as (A & _ & _ & _ & B & C). exact (keeps_ck _ _ A B C). Qed.

Lemma become_follower_ck st r t l r' : become_follower st r t l = Ok r' -> ck r r'.
Proof.
  intros H. destruct (become_follower_eq _ _ _ _ _ H) as (r1 & ER & ->).
  eapply not_leader_ck; [exact (proj1 (reset_keeps _ _ _ _ ER))|reflexivity|discriminate].
Qed.

Lemma prim_ck st m r r' : prim st m r r' -> ck r r'.
Proof.
  intros P. destruct P; try solve [apply keeps_ck; reflexivity].
  - apply emit_ck. exact Em.
  - eapply become_follower_ck. exact Bf.
  - destruct (become_candidate_eq _ _ _ Bc) as (r1 & ER & ->).
    eapply not_leader_ck; [exact (proj1 (reset_keeps _ _ _ _ ER))|reflexivity|discriminate].
  - rewrite (become_pre_candidate_eq _ _ Bp).
    eapply not_leader_ck; [reflexivity|reflexivity|discriminate].
  - (* the new leader records itself *)
    intros [I _]. split; [|reflexivity]. rewrite <- (proj1 (reset_keeps _ _ _ _ Rs)) in I. exact I.
  - (* a follower's handlers set [lead] freely: the node is no leader before or after *)
    eapply not_leader_ck; [reflexivity|exact Fo|discriminate].
  - eapply not_leader_ck; [reflexivity|exact Fo|discriminate].
Qed.

Lemma steps_ck st m r r' : steps st m r r' -> ck r r'.
Proof. apply steps_in; [exact ck_refl|exact ck_trans| |]; intros a b; apply prim_ck. Qed.

Theorem step_ck st r m r' e : step st r m = Ok (r', e) -> ck r r'.
Proof. intros H. eapply steps_ck, step_steps, H. Qed.

Theorem tick_ck st r r' : tick st r = Ok r' -> ck r r'.
Proof.
  intros H. apply tick_ticks in H. revert H.
  apply tsteps_in; [exact ck_refl|exact ck_trans|intros; apply keeps_ck; reflexivity| |].
  - intros m a b _. apply prim_ck.
  - intros a b. apply prim_ck.
Qed.

Definition rcoh (rn : rawnode) : Prop := coh (rn_raft rn).

Lemma accept_ready_ck st rn rd rn' : accept_ready st rn rd = Ok rn' -> ck (rn_raft rn) (rn_raft rn').
Proof.
  intros H. destruct (accept_ready_raft _ _ _ _ H) as (_ & _ & _ & _ & _ & I & S & L & _).
  exact (keeps_ck _ _ I S L).
Qed.

Lemma rn_call_coh st i out rn rn' : rn_call st i out rn rn' -> rcoh rn -> rcoh rn'.
Proof.
  apply (rn_call_in st ck); [exact ck_refl|exact ck_trans|exact (steps_ck st)|exact (tick_ck st)| |exact (accept_ready_ck st)].
  intros x. apply keeps_ck; reflexivity.
Qed.

Theorem node_step_coh n i d n' out rn :
  n_rn n = Some rn -> rcoh rn -> same_incarnation i = true ->
  node_step n i d = Ok (n', out) ->
  exists rn', n_rn n' = Some rn' /\ rcoh rn'.
Proof.
  intros Hrn I SI H.
  destruct (node_step_running _ _ _ _ _ _ Hrn SI H) as [[_ E]|(rn' & E & C)]; [eauto|].
  exists rn'. split; [exact E|]. exact (rn_call_coh _ _ _ _ _ C I).
Qed.

Theorem node_run_coh ins : forall n n' rn,
  n_rn n = Some rn -> rcoh rn ->
  Forall (fun id => same_incarnation (fst id) = true) ins ->
  node_run n ins = Ok n' ->
  exists rn', n_rn n' = Some rn' /\ rcoh rn'.
Proof.
  apply (node_run_inv rcoh (fun i => same_incarnation i = true)).
  intros n i d n' out rn. apply node_step_coh.
Qed.

(* newRaft: Config.validate refuses the id 0, and the node starts as a follower *)
Theorem new_rawnode_coh st c d rn : new_rawnode st c d = Ok rn -> rcoh rn.
Proof.
  unfold new_rawnode. intros H. apply bind_ok in H. destruct H as (r & E & H). injection H as <-.
  destruct (new_raft_ok _ _ _ _ E) as (mu & mc & mb & cfg & pm & lrn & h & l & V & _ & _ & _ & F).
  apply (become_follower_ck _ _ _ _ _ F). split; [|discriminate].
  unfold validate in V. destruct (N.eqb (cfg_id c) NoneId) eqn:E0; [discriminate|]. apply N.eqb_neq. exact E0.
Qed.

(* the CheckQuorum theorem for reachable states: the hypothesis "the leader knows a leader" is a
   consequence of the invariant *)
Theorem check_quorum_steps_down_reachable st r H ops rf :
  coh r -> r_state r = StateLeader -> r_check_quorum r = true ->
  1 <= r_election_timeout r ->
  no_quorum r H -> ops_ok r H ops ->
  lrun st r ops = Ok rf -> 2 * r_election_timeout r <= ticks ops ->
  left_term st r ops.
Proof.
  intros [ID LD] SL CQ ET NQ OK R TK.
  eapply check_quorum_steps_down; try eassumption.
  rewrite (LD SL). exact ID.
Qed.

(* MustSync: a Ready that exposes a new term or a new vote, or carries entries, asks for a durable
   write (C02: the vote must not be forgotten in a crash; C05) *)
Theorem ready_must_sync st rn rd :
  ready_without_accept st rn = Ok rd ->
  (hs_term (hard_state (rn_raft rn)) <> hs_term (rn_prev_hard rn) \/
   hs_vote (hard_state (rn_raft rn)) <> hs_vote (rn_prev_hard rn) \/
   u_next_entries (l_unstable (r_log (rn_raft rn))) <> []) ->
  rd_must_sync rd = true.
Proof.
  unfold ready_without_accept. intros H C. cbv zeta in H.
  destruct (l_next_committed_ents _ _ _) as [cents|]; cbn [bind] in H; [|discriminate].
  assert (MS : must_sync (hard_state (rn_raft rn)) (rn_prev_hard rn)
                         (nlen (u_next_entries (l_unstable (r_log (rn_raft rn))))) = true).
  { unfold must_sync. destruct C as [C|[C|C]].
    - apply N.eqb_neq in C. rewrite C. apply orb_true_r.
    - apply N.eqb_neq in C. rewrite C, orb_true_r. reflexivity.
    - destruct (u_next_entries _); [congruence|]. reflexivity. }
  destruct (rn_async rn).
  - apply bind_ok in H. destruct H as (sa & _ & H). inversion H. exact MS.
  - inversion H. exact MS.
Qed.

(* a granted pre-vote response answers a pre-campaign: at a node that is not a pre-candidate it
   changes nothing, whatever term it carries (C17) *)
Theorem prevote_grant_elsewhere_ignored st r m r' e :
  m_type m = MsgPreVoteResp -> m_reject m = false -> r_state r <> StatePreCandidate ->
  step st r m = Ok (r', e) -> r' = r.
Proof.
  intros TY RJ NP H. unfold step, step_gen in H.
  apply bind_ok in H. destruct H as ([r1 c] & EP & H).
  (* the term check lets the grant through, or drops it, without touching the state *)
  assert (r1 = r) as ->.
  { unfold step_preamble in EP. rewrite TY, RJ in EP.
    destruct (N.eqb (m_term m) 0); [|destruct (r_term r <? m_term m); [|destruct (m_term m <? r_term r)]];
      cbn [andb negb] in EP; inversion EP; reflexivity. }
  destruct c; cbn [negb] in H; [|inversion H; reflexivity].
  unfold step_dispatch in H. rewrite TY in H.
  destruct (r_state r) eqn:RS; try congruence.
  - unfold step_follower in H. rewrite TY in H. inversion H; reflexivity.
  - unfold step_candidate in H. rewrite TY, RS in H. cbn in H. inversion H; reflexivity.
  - unfold step_leader in H. rewrite TY in H.
    destruct (get_progress r (m_from m)); inversion H; reflexivity.
Qed.

(* a follower hands the leader's answer to a forwarded read request to its application unchanged:
   the index the leader confirmed, not something derived from the follower's own (possibly lagging)
   commit index (C11) *)
Theorem follower_reports_leaders_read_index st r m e r' err :
  m_type m = MsgReadIndexResp -> m_entries m = [e] ->
  step_follower st r m = Ok (r', err) ->
  r_read_states r' = r_read_states r ++ [mkRS (m_index m) (e_data e)].
Proof.
  unfold step_follower. intros TY EN H. rewrite TY, EN in H. inversion H; subst. reflexivity.
Qed.
