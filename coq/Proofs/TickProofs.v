(* TickProofs.v: what a tick does (C15): the tick of a leader that gives up a leadership transfer
   (F7 repair) and the election timer of a node that is not leader. *)
From Coq Require Import List NArith Bool Lia.
From RaftV Require Import Base Types Quorum Progress Tracker Storage Log Raft RawNode Tactics RaftSteps.
Import ListNotations.
Open Scope N_scope.

Section WithStorage.
Variable st : memstorage.

(* The tick of a leader without CheckQuorum whose election timeout has run out: the timers are
   restarted and a pending leadership transfer is given up.  The conditions of tick_check and
   tick_beat are projections of the updated state; each is read off r by a conversion of that one
   projection, never by normalising the state.  The branches are stated as implications: an [if]
   over [negb (N.eqb ..)] whose branch calls [applied_to_top] makes the kernel unfold the call
   before the condition. *)
Lemma tick_heartbeat_election_timeout r r' :
  r_state r = StateLeader -> r_check_quorum r = false ->
  r_election_timeout r <= r_election_elapsed r + 1 ->
  tick_heartbeat st r = Ok r' ->
  let r0 := set_r_election_elapsed (tick_timers r) 0 in
  let ra := set_r_lead_transferee r0 NoneId in
  exists r1,
    (r_lead_transferee r = NoneId -> r1 = r0) /\
    (r_lead_transferee r <> NoneId -> applied_to (step_inner st) ra (l_applied (r_log ra)) 0 = Ok r1) /\
    (r_state r1 = StateLeader -> r_heartbeat_elapsed r1 < r_heartbeat_timeout r1 -> r' = r1).
Proof.
  intros S CQ E H r0 ra. rewrite tick_heartbeat_stages in H. apply N.leb_le in E. rewrite E in H.
  apply bind_ok in H. destruct H as (r1 & E1 & H). exists r1.
  unfold tick_check in E1. fold r0 in E1. change (r_check_quorum r0) with (r_check_quorum r) in E1. rewrite CQ in E1.
  apply bind_ok in E1. destruct E1 as (r2 & E0 & E1). injection E0 as <-.
  change (r_state r0) with (r_state r) in E1. change (r_lead_transferee r0) with (r_lead_transferee r) in E1.
  rewrite S in E1. split; [|split].
  - intros X. rewrite X in E1. injection E1 as <-. reflexivity.
  - intros X. apply N.eqb_neq in X. rewrite X in E1. exact E1.
  - intros S1 HB. apply N.leb_gt in HB. unfold tick_beat in H. rewrite S1, HB in H. injection H as <-. reflexivity.
Qed.

Lemma applied_to_plain step_rec r i s r' :
  c_auto_leave (t_config (r_trk r)) = false -> applied_to step_rec r i s = Ok r' ->
  exists l, r' = set_r_log r l.
Proof.
  intros AL H. destruct (applied_to_eq _ _ _ _ _ H) as (l & _ & K). rewrite AL in K. exists l. exact K.
Qed.

Lemma applied_to_leaves step_rec r i s r' :
  c_auto_leave (t_config (r_trk r)) = true -> r_pending_conf_index r <= N.max i (l_applied (r_log r)) ->
  r_state r = StateLeader -> applied_to step_rec r i s = Ok r' ->
  exists l x, l_applied_to (r_log r) (N.max i (l_applied (r_log r))) s = Ok l /\
              step_rec (set_r_log r l) leave_joint_prop = Ok x.
Proof.
  intros AL PC S H. destruct (applied_to_eq _ _ _ _ _ H) as (l & EL & K).
  apply N.leb_le in PC. rewrite AL, PC, S in K. destruct K as (x & EX & _). eauto.
Qed.

(* the F7 repair: in an auto-leave joint configuration whose changes are all applied, the tick that
   gives up a pending leadership transfer (election timeout) goes on to step the proposal that
   leaves the joint configuration, on the state in which the transfer is already aborted *)
Theorem transfer_abort_retries_auto_leave r r' :
  r_state r = StateLeader -> r_check_quorum r = false ->
  c_auto_leave (t_config (r_trk r)) = true -> r_pending_conf_index r <= l_applied (r_log r) ->
  r_lead_transferee r <> NoneId ->
  r_election_timeout r <= r_election_elapsed r + 1 ->
  tick_heartbeat st r = Ok r' ->
  let r0 := set_r_lead_transferee
              (set_r_election_elapsed (set_r_election_elapsed (set_r_heartbeat_elapsed r (r_heartbeat_elapsed r + 1))
                                                              (r_election_elapsed r + 1)) 0) NoneId in
  exists l x,
    l_applied_to (r_log r0) (l_applied (r_log r0)) 0 = Ok l /\
    step_inner st (set_r_log r0 l) leave_joint_prop = Ok x /\
    r_lead_transferee (set_r_log r0 l) = NoneId.
Proof.
  intros S CQ AL PC XF E H r0.
  destruct (tick_heartbeat_election_timeout _ _ S CQ E H) as (r1 & _ & E1 & _).
  apply E1, applied_to_leaves in XF; [|exact AL|rewrite N.max_id; exact PC|exact S].
  destruct XF as (l & x & EL & EX). rewrite N.max_id in EL. exists l, x. auto.
Qed.

(* a leadership transfer is aborted when the election timeout elapses (outside an auto-leave joint
   configuration; inside one the same tick also retries the proposal that leaves it) *)
Theorem transfer_aborted_on_timeout r r' :
  r_state r = StateLeader -> r_check_quorum r = false ->
  c_auto_leave (t_config (r_trk r)) = false ->
  r_election_timeout r <= r_election_elapsed r + 1 ->
  r_heartbeat_elapsed r + 1 < r_heartbeat_timeout r ->
  tick_heartbeat st r = Ok r' -> r_lead_transferee r' = NoneId.
Proof.
  intros S CQ AL E HB H.
  destruct (tick_heartbeat_election_timeout _ _ S CQ E H) as (r1 & E0 & E1 & E2).
  destruct (N.eq_dec (r_lead_transferee r) NoneId) as [X|X].
  - rewrite (E0 X) in E2. rewrite E2; [exact X|exact S|exact HB].
  - apply E1, applied_to_plain in X; [|exact AL]. destruct X as [l ->].
    rewrite E2; [reflexivity|exact S|exact HB].
Qed.

Lemma tick_not_leader r :
  r_state r <> StateLeader ->
  tick st r =
  if promotable r && (r_randomized_election_timeout r <=? r_election_elapsed r + 1)
  then do x <- step st (set_r_election_elapsed (set_r_election_elapsed r (r_election_elapsed r + 1)) 0)
                    (set_from (msg0 MsgHup) (r_id r));
       Ok (fst x)
  else Ok (set_r_election_elapsed r (r_election_elapsed r + 1)).
Proof. intros NL. unfold tick. destruct (r_state r); try reflexivity. congruence. Qed.

Theorem tick_election_counts r r' :
  r_state r <> StateLeader -> r_election_elapsed r + 1 < r_randomized_election_timeout r ->
  tick st r = Ok r' -> r' = set_r_election_elapsed r (r_election_elapsed r + 1).
Proof.
  intros NL LT. apply N.leb_gt in LT. rewrite (tick_not_leader _ NL), LT, andb_false_r.
  intros H. injection H as <-. reflexivity.
Qed.

(* a node that cannot campaign (a learner, a node outside the configuration, a node with a snapshot
   pending) never restarts its election timer by itself: every tick only advances it, so the
   CheckQuorum lease of a leader it no longer hears from runs out *)
Theorem nonpromotable_timer_counts r r' :
  r_state r <> StateLeader -> promotable r = false ->
  tick st r = Ok r' -> r' = set_r_election_elapsed r (r_election_elapsed r + 1).
Proof.
  intros NL NP. rewrite (tick_not_leader _ NL), NP. intros H. injection H as <-. reflexivity.
Qed.

(* MsgHup carries no term: Step goes straight to hup *)
Lemma step_hup r id x :
  step st r (set_from (msg0 MsgHup) id) = Ok x ->
  exists r', hup st r (if r_pre_vote r then CampaignPreElection else CampaignElection) = Ok r' /\ x = (r', ENone).
Proof.
  rewrite step_local by reflexivity. unfold step_dispatch. cbn [m_type set_from msg0].
  intros H. apply bind_ok in H. destruct H as (r' & EH & H). injection H as <-. eauto.
Qed.

Lemma hup_campaigns r t :
  r_state r <> StateLeader -> promotable r = true -> has_unapplied_conf_changes st r = Ok false ->
  hup st r t = campaign st r t.
Proof. unfold hup. intros NL PR HU. rewrite PR, HU. destruct (r_state r); try reflexivity. congruence. Qed.

(* when the randomized election timeout runs out, a node that may campaign (a voter with no
   snapshot pending and no committed configuration change waiting to be applied) does: it is a
   pre-candidate (PreVote) or a candidate afterwards *)
Theorem election_timeout_fires r r' :
  r_state r <> StateLeader ->
  r_randomized_election_timeout r <= r_election_elapsed r + 1 ->
  promotable r = true -> has_unapplied_conf_changes st r = Ok false ->
  tick st r = Ok r' ->
  r_state r' = if r_pre_vote r then StatePreCandidate else StateCandidate.
Proof.
  intros NL LE PR HU. apply N.leb_le in LE. rewrite (tick_not_leader _ NL), PR, LE.
  intros H. apply bind_ok in H. destruct H as (x & ES & H). injection H as <-.
  apply step_hup in ES. destruct ES as (r1 & EH & ->).
  rewrite hup_campaigns in EH; [|exact NL|exact PR|exact HU].
  apply campaign_state in EH. cbn [fst]. rewrite EH. cbn [r_pre_vote set_r_election_elapsed].
  destruct (r_pre_vote r); reflexivity.
Qed.

End WithStorage.
