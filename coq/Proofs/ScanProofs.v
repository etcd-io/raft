(* ScanProofs.v: hasUnappliedConfChanges decides exactly whether the logical log holds a
   configuration change in (applied, committed]; hup campaigns only when it does not. *)
From Coq Require Import List NArith Bool Lia Arith.
From RaftV Require Import Base Types Storage Log Raft Tactics LogProofs AppendRefine SliceRefine.
Import ListNotations.
Open Scope N_scope.

Theorem l_scan_exists_spec st l f ps : l_wf st l -> forall fuel lo hi b,
  l_scan_exists st l fuel lo hi ps f = Ok b ->
  (b = true -> exists i e, lo <= i < hi /\ a_at (lview st l) i = Some e /\ f e = true) /\
  (b = false -> forall i e, lo <= i < hi -> a_at (lview st l) i = Some e -> f e = false).
Proof.
  intros W. pose proof W as (WS & WU & _).
  induction fuel as [|fu IH]; intros lo hi b H; cbn [l_scan_exists] in H.
  - destruct (N.ltb_spec lo hi); [discriminate|]. inversion H; subst. split; [discriminate|]. intros _ i e R. lia.
  - destruct (N.ltb_spec lo hi) as [LT|GE]; cbn [negb] in H.
    2:{ inversion H; subst. split; [discriminate|]. intros _ i e R. lia. }
    destruct (l_slice st l lo hi ps) as [[ents er]|] eqn:SL; cbn [bind] in H; [|discriminate].
    destruct er; try discriminate.
    destruct ents as [|e0 ents0] eqn:EE; [discriminate|]. rewrite <- EE in *.
    pose proof (l_slice_contig _ _ _ _ _ _ WS WU SL) as [CT LEN].
    pose proof (l_slice_view _ _ _ _ _ _ W SL) as VW.
    destruct (existsb f ents) eqn:EX.
    + inversion H; subst b. split; [|discriminate]. intros _.
      apply existsb_exists in EX as (e & IN & F). apply In_nth_error in IN as [k NK].
      exists (lo + N.of_nat k), e. split; [|split; [apply VW; exact NK|exact F]].
      apply nth_error_nlen in NK. lia.
    + apply IH in H. destruct H as [HT HF]. split.
      * intros B. destruct (HT B) as (i & e & R & AT & F). exists i, e. split; [lia|auto].
      * intros B i e R AT. destruct (N.ltb_spec i (lo + nlen ents)) as [IN|OUT]; [|apply (HF B i e); [lia|exact AT]].
        destruct (nth_error ents (N.to_nat (i - lo))) as [e'|] eqn:NK; [|apply nth_error_nlen_None in NK; lia].
        pose proof (VW _ _ NK) as AT'. replace (lo + N.of_nat (N.to_nat (i - lo))) with i in AT' by lia.
        rewrite AT in AT'. inversion AT'; subst e'. destruct (f e) eqn:F; [|reflexivity].
        rewrite <- EX. symmetry. apply existsb_exists. exists e. split; [exact (nth_error_In _ _ NK)|exact F].
Qed.

Section Hup.
Variable st : memstorage.

Theorem has_unapplied_conf_changes_spec r b :
  l_wf st (r_log r) -> has_unapplied_conf_changes st r = Ok b ->
  (b = true -> exists i e, l_applied (r_log r) < i <= l_committed (r_log r) /\
                           a_at (lview st (r_log r)) i = Some e /\ is_cc_type (e_type e) = true) /\
  (b = false -> forall i e, l_applied (r_log r) < i <= l_committed (r_log r) ->
                            a_at (lview st (r_log r)) i = Some e -> is_cc_type (e_type e) = false).
Proof.
  intros W H. unfold has_unapplied_conf_changes in H.
  destruct (N.leb_spec (l_committed (r_log r)) (l_applied (r_log r))) as [LE|GT].
  - inversion H; subst. split; [discriminate|]. intros _ i e R. lia.
  - apply (l_scan_exists_spec _ _ _ _ W) in H. destruct H as [HT HF]. split.
    + intros B. destruct (HT B) as (i & e & R & AT & F). exists i, e. split; [lia|auto].
    + intros B i e R AT. apply (HF B i e); [lia|exact AT].
Qed.

(* a node whose log holds a committed configuration change it has not applied does not
   campaign: whenever hup changes anything, (applied, committed] is free of them *)
Theorem hup_campaigns_only_without_unapplied_cc r t r' :
  l_wf st (r_log r) -> hup st r t = Ok r' -> r' <> r ->
  forall i e, l_applied (r_log r) < i <= l_committed (r_log r) ->
              a_at (lview st (r_log r)) i = Some e -> is_cc_type (e_type e) = false.
Proof.
  intros W H NE. unfold hup in H.
  destruct (state_type_eqb _ _); [inversion H; congruence|].
  destruct (negb _); [inversion H; congruence|].
  destruct (has_unapplied_conf_changes st r) as [u|] eqn:HU; cbn [bind] in H; [|discriminate].
  destruct u; [inversion H; congruence|].
  apply has_unapplied_conf_changes_spec in HU; [|exact W]. destruct HU as [_ HF]. exact (HF eq_refl).
Qed.
End Hup.
