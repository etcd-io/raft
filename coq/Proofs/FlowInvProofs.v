(* FlowInvProofs.v: the inflight window of every follower, as an invariant of the node (C16).
   [iok i]: the ring buffer represents a window (InflRefine.infl_ok) that holds at most [size]
   messages and, under a byte limit, all but its newest message below the limit.
   [pinv M B r]: every Progress of the tracker has such a window, sized by the node's MaxInflightMsgs
   M and MaxInflightBytes B.  The invariant is established by newRaft / reset / the configuration
   changer (fresh windows) and kept by every primitive update of raft.go (RaftSteps.prim), hence by
   every message, tick, proposal, configuration change and snapshot restore, and by every call of
   the RawNode API: a leader never has more than MaxInflightMsgs appends (nor more than
   MaxInflightBytes beyond one message) in flight to any follower, in any reachable state. *)
From Coq Require Import List NArith Lia.
From RaftV Require Import Base Types Quorum Progress Tracker Storage Log Raft RawNode Tactics
     AssocFacts RaftSteps NodeSteps NodeProps InflRefine ConfProofs.
Import ListNotations.
Open Scope N_scope.

Definition iok (i : inflights) : Prop :=
  infl_ok i /\ window_inv (in_size i) (in_maxbytes i) (infl_window i).

Lemma iok_step i o i' :
  iok i -> cstep i o = Ok i' -> iok i' /\ in_size i' = in_size i /\ in_maxbytes i' = in_maxbytes i.
Proof.
  intros [O W] H. pose proof (infl_refines i o O) as R. rewrite H in R.
  destruct (astep (in_size i) (in_maxbytes i) (infl_window i) o) as [w'|] eqn:A; [|contradiction].
  destruct R as (O' & WW & SS & MM & _). split; [|auto]. split; [exact O'|].
  rewrite SS, MM, WW. eapply window_inv_step; eassumption.
Qed.

Lemma iok_new size mb : iok (new_inflights size mb).
Proof.
  destruct (infl_new_ok size mb) as [O W]. split; [exact O|]. rewrite W.
  unfold window_inv. cbn. split; [lia|]. intros _. right. reflexivity.
Qed.

Lemma iok_bounds i : iok i ->
  infl_count i <= in_size i /\
  (in_maxbytes i <> 0 -> sumb (removelast (infl_window i)) < in_maxbytes i \/ infl_window i = []).
Proof.
  intros [_ [L B]]. split; [|exact B].
  unfold infl_count. pose proof (window_length i) as WL. unfold nlen in L. lia.
Qed.

Definition prok (M B : N) (p : progress) : Prop :=
  iok (pr_inflights p) /\ in_size (pr_inflights p) = M /\ in_maxbytes (pr_inflights p) = B.

Lemma prok_same_infl M B p p' : pr_inflights p' = pr_inflights p -> prok M B p -> prok M B p'.
Proof. unfold prok. intros E. rewrite E. auto. Qed.

Lemma prok_step M B p o p' :
  cstep (pr_inflights p) o = Ok (pr_inflights p') -> prok M B p -> prok M B p'.
Proof.
  unfold prok. intros H (O & SS & MM). destruct (iok_step _ _ _ O H) as (O' & S' & M'). rewrite S', M'. auto.
Qed.

(* the methods of Progress reset the window (a change of state), add to it (sent entries), free a
   prefix of it (an acknowledgement) or leave it alone *)
Lemma pr_ops_prok M B p p' : pr_ops p p' -> prok M B p -> prok M B p'.
Proof.
  induction 1 as [p p' O| |]; [|auto|auto].
  destruct O; try (apply prok_same_infl; reflexivity).
  - unfold pr_become_probe. destruct (pr_state_eqb _ _); apply (prok_step _ _ _ IReset); reflexivity.
  - apply (prok_step _ _ _ IReset). reflexivity.
  - apply (prok_step _ _ _ IReset). reflexivity.
  - unfold pr_sent_entries in H. destruct (pr_state_ p); [| |discriminate].
    + destruct (0 <? n); inversion H; apply prok_same_infl; reflexivity.
    + destruct (0 <? n); [destruct (infl_add _ _ _) as [i'|] eqn:EA; [|discriminate]|]; inversion H.
      * apply (prok_step _ _ _ (IAdd (pr_next p + n - 1) b)). exact EA.
      * apply prok_same_infl. reflexivity.
  - unfold pr_maybe_update in H. destruct (_ <=? _); inversion H; apply prok_same_infl; reflexivity.
  - unfold pr_maybe_decr_to in H. destruct (pr_state_eqb _ _); [destruct (_ <=? _)|destruct (negb _)];
      inversion H; apply prok_same_infl; reflexivity.
  - apply (prok_step _ _ _ (IFree i)). reflexivity.
Qed.

Definition pmok (M B : N) (p : progress_map) : Prop := Forall (fun kv => prok M B (snd kv)) p.

Lemma pmok_lookup M B p id pr : pmok M B p -> alookup p id = Some pr -> prok M B pr.
Proof. unfold pmok. intros F L. apply alookup_in in L. rewrite Forall_forall in F. exact (F _ L). Qed.

Lemma pmok_insert M B p id pr : pmok M B p -> prok M B pr -> pmok M B (ainsert p id pr).
Proof. unfold pmok. intros F H. apply forall_ainsert; assumption. Qed.

Lemma pmok_remove M B p id : pmok M B p -> pmok M B (aremove p id).
Proof. unfold pmok. apply forall_aremove. Qed.

Lemma pmok_map M B (f : N * progress -> N * progress) p :
  (forall kv, prok M B (snd kv) -> prok M B (snd (f kv))) -> pmok M B p -> pmok M B (map f p).
Proof. unfold pmok. intros K F. apply Forall_map. revert F. apply Forall_impl. exact K. Qed.

Lemma init_progress_ok M B li c p id l c' p' :
  pmok M B p -> init_progress M B li c p id l = (c', p') -> pmok M B p'.
Proof.
  unfold init_progress. intros F E. inversion E; subst. apply pmok_insert; [exact F|].
  unfold prok. cbn [pr_inflights]. split; [apply iok_new|]. auto.
Qed.

Lemma cc_remove_ok M B c p id c' p' : pmok M B p -> cc_remove c p id = (c', p') -> pmok M B p'.
Proof.
  unfold cc_remove. intros F E. destruct (negb _); [inversion E; subst; exact F|].
  destruct (smem _ _); inversion E; subst; [exact F|apply pmok_remove; exact F].
Qed.

Lemma make_voter_ok M B li c p id c' p' : pmok M B p -> make_voter M B li c p id = (c', p') -> pmok M B p'.
Proof.
  unfold make_voter. intros F E. destruct (alookup p id) as [pr|] eqn:L.
  - inversion E; subst. apply pmok_insert; [exact F|].
    eapply prok_same_infl; [|eapply pmok_lookup; eassumption]. reflexivity.
  - eapply init_progress_ok; eassumption.
Qed.

Lemma make_learner_ok M B li c p id c' p' : pmok M B p -> make_learner M B li c p id = (c', p') -> pmok M B p'.
Proof.
  unfold make_learner. intros F E. destruct (alookup p id) as [pr|] eqn:L.
  - destruct (pr_is_learner pr); [inversion E; subst; exact F|].
    destruct (cc_remove c p id) as [c1 p1] eqn:ER. apply (cc_remove_ok M B) in ER; [|exact F].
    pose proof (pmok_lookup _ _ _ _ _ F L) as PK.
    destruct (smem _ _); inversion E; subst; apply pmok_insert; try exact ER; exact PK.
  - eapply init_progress_ok; eassumption.
Qed.

(* ConfProofs.cc_run is Changer.apply without its ways of failing; what the changers return is a run
   of it *)
Lemma cc_step_pmok M B li s cc : pmok M B (snd s) -> pmok M B (snd (cc_step M B li s cc)).
Proof.
  unfold cc_step. intros F. destruct (N.eqb _ 0); [exact F|].
  destruct (ccs_type cc); try exact F.
  - destruct (make_voter _ _ _ _ _ _) eqn:E. eapply make_voter_ok; eassumption.
  - destruct (cc_remove _ _ _) eqn:E. eapply cc_remove_ok; eassumption.
  - destruct (make_learner _ _ _ _ _ _) eqn:E. eapply make_learner_ok; eassumption.
Qed.

Lemma cc_run_pmok M B li ccs : forall s, pmok M B (snd s) -> pmok M B (snd (cc_run M B li s ccs)).
Proof. induction ccs as [|cc ccs IH]; intros s F; cbn; [exact F|]. apply IH, cc_step_pmok, F. Qed.

Definition tok_trk (t : tracker) : Prop := pmok (t_max_inflight t) (t_max_inflight_bytes t) (t_progress t).

Lemma changer_simple_pm t li ccs c p : tok_trk t -> changer_simple t li ccs = inl (c, p) ->
  pmok (t_max_inflight t) (t_max_inflight_bytes t) p.
Proof.
  intros F E. apply changer_simple_inv in E. destruct E as (_ & _ & R & _).
  change p with (snd (c, p)). rewrite R. apply cc_run_pmok, F.
Qed.

Lemma changer_enter_joint_pm t li al ccs c p : tok_trk t -> changer_enter_joint t li al ccs = inl (c, p) ->
  pmok (t_max_inflight t) (t_max_inflight_bytes t) p.
Proof.
  intros F E. apply changer_enter_joint_inv in E. destruct E as (_ & _ & _ & c2 & R & _).
  change p with (snd (c2, p)). rewrite R. apply cc_run_pmok, F.
Qed.

Lemma fold_left_pmok M B (f : progress_map -> N -> progress_map) :
  (forall p id, pmok M B p -> pmok M B (f p id)) ->
  forall ids p, pmok M B p -> pmok M B (fold_left f ids p).
Proof. intros K ids. induction ids as [|id ids IH]; intros p F; cbn; auto. Qed.

(* LeaveJoint turns LearnersNext into learners and drops the outgoing voters that are left over *)
Lemma changer_leave_joint_pm t c p : tok_trk t -> changer_leave_joint t = inl (c, p) ->
  pmok (t_max_inflight t) (t_max_inflight_bytes t) p.
Proof.
  unfold changer_leave_joint, tok_trk. intros F E.
  destruct (check_and_return _ _) as [[c0 p0]|] eqn:E0; [|discriminate].
  apply check_and_return_ok in E0. destruct E0 as (_ & -> & _).
  destruct (negb (joint c0)); [discriminate|]. cbv zeta in E.
  apply check_and_return_ok in E. destruct E as (_ & -> & _).
  apply fold_left_pmok; [intros p id K; destruct (_ && _); [apply pmok_remove|]; exact K|].
  apply fold_left_pmok; [|exact F]. intros p id K. destruct (alookup p id) as [pr|] eqn:L; [|exact K].
  apply pmok_insert; [exact K|]. eapply prok_same_infl; [|eapply pmok_lookup; eassumption]. reflexivity.
Qed.

Lemma apply_conf_change_pm t li cc c p : tok_trk t -> apply_conf_change t li cc = inl (c, p) ->
  pmok (t_max_inflight t) (t_max_inflight_bytes t) p.
Proof.
  unfold apply_conf_change. intros F E.
  destruct (ccv2_leave_joint cc); [eapply changer_leave_joint_pm; eassumption|].
  destruct (ccv2_enter_joint cc); [eapply changer_enter_joint_pm; eassumption|eapply changer_simple_pm; eassumption].
Qed.

Lemma chain_simple_ok li ccs : forall t t',
  tok_trk t -> chain_simple t li ccs = inl t' ->
  tok_trk t' /\ t_max_inflight t' = t_max_inflight t /\ t_max_inflight_bytes t' = t_max_inflight_bytes t.
Proof.
  induction ccs as [|cc ccs IH]; intros t t' F E; cbn in E.
  - inversion E; subst. auto.
  - destruct (changer_simple t li [cc]) as [[c p]|] eqn:E1; [|discriminate].
    apply (changer_simple_pm _ _ _ _ _ F) in E1.
    destruct (IH (t_with_config_progress t c p) t') as (F' & A & B); [exact E1|exact E|].
    split; [exact F'|]. cbn in A, B. auto.
Qed.

Lemma cc_restore_pm t li cs c p : tok_trk t -> cc_restore t li cs = inl (c, p) ->
  pmok (t_max_inflight t) (t_max_inflight_bytes t) p.
Proof.
  intros F E. destruct (cc_restore_inv _ _ _ _ _ E) as [(_ & t' & E1 & -> & ->)|(_ & t' & E1 & E2)];
    destruct (chain_simple_ok _ _ _ _ F E1) as (F' & A & B).
  - unfold tok_trk in F'. rewrite A, B in F'. exact F'.
  - apply (changer_enter_joint_pm _ _ _ _ _ _ F') in E2. rewrite A, B in E2. exact E2.
Qed.

Lemma changer_result_pm t cfg pm :
  tok_trk t -> changer_result t cfg pm -> pmok (t_max_inflight t) (t_max_inflight_bytes t) pm.
Proof.
  intros F [(li & cc & E)|(li & cs & E)]; [eapply apply_conf_change_pm|eapply cc_restore_pm]; eassumption.
Qed.

Section WithLimits.
Variables M B : N.

Definition pinv (r : raft) : Prop :=
  t_max_inflight (r_trk r) = M /\ t_max_inflight_bytes (r_trk r) = B /\ pmok M B (t_progress (r_trk r)).

Definition pk (r r' : raft) : Prop := pinv r -> pinv r'.

Lemma pk_refl r : pk r r.
Proof. unfold pk. auto. Qed.
Lemma pk_trans a b c : pk a b -> pk b c -> pk a c.
Proof. unfold pk. auto. Qed.

Lemma pk_frame r r' : r_trk r' = r_trk r -> pk r r'.
Proof. unfold pk, pinv. intros E. rewrite E. auto. Qed.

Lemma lookup_prok r id pr : pinv r -> get_progress r id = Some pr -> prok M B pr.
Proof. unfold pinv, get_progress. intros (_ & _ & F) L. eapply pmok_lookup; eassumption. Qed.

Lemma put_progress_pk r id p p' :
  get_progress r id = Some p -> (prok M B p -> prok M B p') -> pk r (put_progress r id p').
Proof.
  intros G K I. pose proof (K (lookup_prok _ _ _ I G)) as P'. destruct I as (A & C & F).
  unfold pinv, put_progress. cbn. auto using pmok_insert.
Qed.

Lemma send_get r m r' id : send r m = Ok r' -> get_progress r' id = get_progress r id.
Proof. apply send_progress. Qed.

Lemma emit_pk r r' : emit r r' -> pk r r'.
Proof.
  destruct 1 as [m r' H _|id p p' G O|ro _|r' H].
  - destruct (send_keeps _ _ _ H) as [E|E]; rewrite E; apply pk_frame; reflexivity.
  - eapply put_progress_pk; [exact G|apply pr_ops_prok, O].
  - apply pk_frame. reflexivity.
  - rewrite H. apply pk_frame. reflexivity.
Qed.

Section WithStorage.
Variable st : memstorage.

(* reset gives every Progress a fresh window of the tracker's limits; becomeFollower,
   becomeCandidate and becomeLeader go through it and leave the tracker as reset left it *)
Lemma reset_pk r term r1 r' : reset st r term = Ok r1 -> r_trk r' = r_trk r1 -> pk r r'.
Proof.
  intros H T (A & C & F). destruct (reset_eq _ _ _ _ H) as (d & ds & _ & E).
  unfold pinv, reset_progress. rewrite T, E. cbn. repeat split; auto.
  apply pmok_map; [|exact F]. intros kv _. rewrite A, C. split; [apply iok_new|auto].
Qed.

Lemma become_follower_pk r term lead r' : become_follower st r term lead = Ok r' -> pk r r'.
Proof.
  intros H. destruct (become_follower_eq _ _ _ _ _ H) as (r1 & ER & ->). eapply reset_pk; [exact ER|reflexivity].
Qed.

Lemma prim_pk m r r' : prim st m r r' -> pk r r'.
Proof.
  destruct 1; try solve [unfold pk, pinv; cbn; auto].
  - apply emit_pk. exact Em.
  - eapply become_follower_pk. exact Bf.
  - destruct (become_candidate_eq _ _ _ Bc) as (r1 & ER & ->). eapply reset_pk; [exact ER|reflexivity].
  - (* becomePreCandidate only forgets the votes *)
    rewrite (become_pre_candidate_eq _ _ Bp). unfold pk, pinv. cbn. auto.
  - eapply reset_pk; [exact Rs|reflexivity].
  - eapply put_progress_pk; [exact Gp|]. intros P. eapply pr_ops_prok; [exact Op|].
    revert P. apply prok_same_infl. reflexivity.
  - (* RecentActive is no part of a window *)
    intros (A & C & F). unfold pinv, clear_recent_active. cbn. repeat split; auto.
    apply pmok_map; [|exact F]. intros kv. cbv beta.
    destruct (N.eqb _ _); [auto|apply prok_same_infl; reflexivity].
  - (* the changer builds its windows from the limits of the tracker it is given *)
    intros (A & C & F). unfold pinv. cbn. repeat split; auto.
    rewrite <- A, <- C. apply changer_result_pm with cfg; [unfold tok_trk; rewrite A, C; exact F|exact Cr].
  - (* restore starts from a tracker without any Progress *)
    intros (A & C & _). unfold pinv. cbn. repeat split; auto. constructor.
Qed.

Lemma steps_pk m r r' : steps st m r r' -> pk r r'.
Proof. apply steps_in; [exact pk_refl|exact pk_trans|apply prim_pk|apply prim_pk]. Qed.

(* every message, of any type, term and content, keeps every follower's window within the limits *)
Theorem step_pk r m r' e : step st r m = Ok (r', e) -> pk r r'.
Proof. intros H. eapply steps_pk, step_steps, H. Qed.

Theorem tick_pk r r' : tick st r = Ok r' -> pk r r'.
Proof.
  intros H. apply tick_ticks in H. revert H.
  apply tsteps_in; [exact pk_refl|exact pk_trans|intros; apply pk_frame; reflexivity| |apply prim_pk].
  intros m a b _. apply prim_pk.
Qed.

Lemma apply_conf_change_raft_pk r cc r' cs : apply_conf_change_raft st r cc = Ok (r', cs) -> pk r r'.
Proof. intros H. eapply (steps_pk leave_joint_prop), apply_conf_change_raft_steps, H. Qed.

Lemma restore_pk r s r' b : restore st r s = Ok (r', b) -> pk r r'.
Proof. intros H. eapply (steps_pk leave_joint_prop), restore_steps, H. Qed.

End WithStorage.
End WithLimits.

(* in a state that satisfies the invariant no follower has more than M messages in flight, and
   under a byte limit everything but the newest of them stays below the limit *)
Theorem pinv_bounds M B r id pr :
  pinv M B r -> get_progress r id = Some pr ->
  infl_count (pr_inflights pr) <= M /\
  (B <> 0 -> sumb (removelast (infl_window (pr_inflights pr))) < B \/ infl_window (pr_inflights pr) = []).
Proof.
  intros I L. destruct (lookup_prok _ _ _ _ _ I L) as (O & SS & MM).
  destruct (iok_bounds _ O) as [C1 C2]. rewrite SS in C1. rewrite MM in C2. auto.
Qed.

Section NodeLevel.
Variables M B : N.
Variable st : memstorage.

Definition rpinv (rn : rawnode) : Prop := pinv M B (rn_raft rn).

Lemma accept_ready_pk rn rd rn' : accept_ready st rn rd = Ok rn' -> pk M B (rn_raft rn) (rn_raft rn').
Proof.
  intros H. apply pk_frame. apply (accept_ready_raft _ _ _ _ H).
Qed.

Lemma rn_call_pk i out rn rn' : rn_call st i out rn rn' -> pk M B (rn_raft rn) (rn_raft rn').
Proof.
  apply (rn_call_in st (pk M B)); [exact (pk_refl M B)|exact (pk_trans M B)|exact (steps_pk M B st)|exact (tick_pk M B st)| |exact accept_ready_pk].
  intros x. apply pk_frame. reflexivity.
Qed.

End NodeLevel.

Theorem node_step_pinv M B n i d n' out rn :
  n_rn n = Some rn -> rpinv M B rn -> same_incarnation i = true ->
  node_step n i d = Ok (n', out) ->
  exists rn', n_rn n' = Some rn' /\ rpinv M B rn'.
Proof.
  intros Hrn I SI H.
  destruct (node_step_running _ _ _ _ _ _ Hrn SI H) as [[_ E]|(rn' & E' & C)]; [eauto|].
  exists rn'. split; [exact E'|exact (rn_call_pk _ _ _ _ _ _ _ C I)].
Qed.

Theorem node_run_pinv M B ins : forall n n' rn,
  n_rn n = Some rn -> rpinv M B rn ->
  Forall (fun id => same_incarnation (fst id) = true) ins ->
  node_run n ins = Ok n' ->
  exists rn', n_rn n' = Some rn' /\ rpinv M B rn'.
Proof. exact (node_run_inv _ (fun i => same_incarnation i = true) (node_step_pinv M B) ins). Qed.

Lemma validate_inflight_bytes c mu mc mb :
  validate c = Some (mu, mc, mb) ->
  mb = if N.eqb (cfg_max_inflight_bytes c) 0 then noLimit else cfg_max_inflight_bytes c.
Proof.
  unfold validate. cbv zeta.
  destruct (_ || _); [discriminate|]. destruct (N.eqb (cfg_heartbeat_tick c) 0); [discriminate|].
  destruct (_ <=? _); [discriminate|]. destruct (N.eqb (cfg_max_inflight_msgs c) 0); [discriminate|].
  destruct (negb _ && _); [discriminate|].
  destruct (cfg_read_only c), (cfg_check_quorum c); intros H; inversion H; reflexivity.
Qed.

(* newRaft establishes the invariant with the configured limits: the tracker starts empty, restoring
   the configuration fills it, and the final becomeFollower resets every window *)
Theorem new_rawnode_pinv st c d rn :
  new_rawnode st c d = Ok rn ->
  rpinv (cfg_max_inflight_msgs c)
        (if N.eqb (cfg_max_inflight_bytes c) 0 then noLimit else cfg_max_inflight_bytes c) rn.
Proof.
  unfold new_rawnode, rpinv. intros H. apply bind_ok in H. destruct H as (r & E & H). injection H as <-.
  destruct (new_raft_ok _ _ _ _ E) as (mu & mc & mb & cfg & pm & lrn & h & l & V & C & _ & _ & F).
  apply validate_inflight_bytes in V. rewrite <- V.
  apply (become_follower_pk _ _ _ _ _ _ _ F).
  set (t0 := make_tracker (cfg_max_inflight_msgs c) mb) in *.
  apply (prim_pk _ _ _ _ _ _ (P_config st leave_joint_prop (new_raft_state c mu d h l t0 lrn) cfg pm C)).
  unfold pinv. cbn. repeat split. constructor.
Qed.
