(* CheckQuorumProofs.v: the CheckQuorum step-down of a leader (C17), over arbitrary sequences of
   ticks and messages.
   The leader marks a peer as recently active only when it steps a MsgAppResp or a
   MsgHeartbeatResp from that peer; every election timeout it checks that the peers so marked
   (and itself) form a quorum of every voter set, steps down if they do not, and clears the marks.
   Consequently a leader that does not hear from a quorum is no longer leader of its term after at
   most two election timeouts of ticks.  A leadership transfer request restarts the election
   timer (raft.go: "Transfer leadership should be finished in one electionTimeout"), so the
   theorem is about histories without such requests ([admissible]; finding F13 is the
   counterexample with them, CheckQuorumEx.v). *)
From Coq Require Import List NArith Bool Lia.
From RaftV Require Import AssocFacts Base Types Quorum Progress Tracker Storage Log Raft RawNode Tactics RaftSteps RaftMono.
Import ListNotations.
Open Scope N_scope.

Definition act_in (S : N -> Prop) (r : raft) : Prop :=
  Forall (fun kv => pr_recent_active (snd kv) = true -> S (fst kv)) (t_progress (r_trk r)).

Lemma act_in_weaken (S S' : N -> Prop) r : (forall i, S i -> S' i) -> act_in S r -> act_in S' r.
Proof. unfold act_in. intros HS H. eapply Forall_impl; [|exact H]. cbn. intros a Ha A. auto. Qed.

Lemma act_in_lookup S r id pr :
  act_in S r -> get_progress r id = Some pr -> pr_recent_active pr = true -> S id.
Proof.
  unfold act_in, get_progress. intros F L A. apply alookup_in in L.
  rewrite Forall_forall in F. apply (F _ L). exact A.
Qed.

Lemma put_progress_act S r id p :
  act_in S r -> (pr_recent_active p = true -> S id) -> act_in S (put_progress r id p).
Proof. unfold act_in, put_progress. cbn. intros F H. apply forall_ainsert; assumption. Qed.

(* the bookkeeping of a leadership that CheckQuorum depends on *)
Definition lstate (r : raft) :=
  (r_id r, r_term r, r_state r, r_vote r, r_lead r, r_election_elapsed r, r_election_timeout r,
   r_check_quorum r, t_config (r_trk r)).

(* [lk X r r']: the bookkeeping is kept and no peer outside X is newly marked active *)
Definition lk (X : N -> Prop) (r r' : raft) : Prop :=
  lstate r' = lstate r /\ forall S, act_in S r -> act_in (fun i => S i \/ X i) r'.

Definition nobody : N -> Prop := fun _ => False.

Lemma lk_refl X r : lk X r r.
Proof. split; [reflexivity|]. intros S H. eapply act_in_weaken; [|exact H]. auto. Qed.

Lemma lk_trans X a b c : lk X a b -> lk X b c -> lk X a c.
Proof.
  intros [L1 A1] [L2 A2]. split; [congruence|]. intros S H.
  eapply act_in_weaken; [|apply A2, A1, H]. cbn. tauto.
Qed.

Lemma lk_weaken (X Y : N -> Prop) r r' : (forall i, X i -> Y i) -> lk X r r' -> lk Y r r'.
Proof.
  intros XY [L A]. split; [exact L|]. intros S H. eapply act_in_weaken; [|apply A, H]. cbn. intros i [Hi|Hi]; auto.
Qed.

Lemma lk_same_trk X r r' : lstate r' = lstate r -> t_progress (r_trk r') = t_progress (r_trk r) -> lk X r r'.
Proof.
  intros L P. split; [exact L|]. intros S H. unfold act_in in *. rewrite P.
  eapply Forall_impl; [|exact H]. cbn. auto.
Qed.

Ltac lk_id := apply lk_same_trk; reflexivity.

(* a Progress that is put back marked active was marked before, or belongs to a peer in X *)
Lemma put_progress_lk (X : N -> Prop) r id p :
  (forall S, act_in S r -> pr_recent_active p = true -> S id \/ X id) -> lk X r (put_progress r id p).
Proof.
  intros A. split; [reflexivity|]. intros S H. apply put_progress_act; [|exact (A S H)].
  eapply act_in_weaken; [|exact H]. auto.
Qed.

Lemma send_lk X r m r' : send r m = Ok r' -> lk X r r'.
Proof. intros H. destruct (send_keeps _ _ _ H) as [E|E]; rewrite E; lk_id. Qed.

(* sending marks nobody: it appends to a queue, moves a Progress by methods that leave RecentActive
   alone, or touches read bookkeeping *)
Lemma emit_lk X r r' : emit r r' -> lk X r r'.
Proof.
  destruct 1 as [m r' H _|id p p' G O|ro _|r' H].
  - eapply send_lk; eassumption.
  - apply put_progress_lk. intros S H A. left. rewrite (pr_ops_recent_active _ _ O) in A.
    exact (act_in_lookup _ _ _ _ H G A).
  - lk_id.
  - rewrite H. lk_id.
Qed.

Lemma emits_lk X r r' : emits r r' -> lk X r r'.
Proof. induction 1; [apply emit_lk; assumption|apply lk_refl|eapply lk_trans; eassumption]. Qed.

Section WithStorage.
Variable st : memstorage.

Lemma maybe_commit_lk X r r' b : maybe_commit st r = Ok (r', b) -> lk X r r'.
Proof.
  unfold maybe_commit. intros H.
  inv_ok. lk_id.
Qed.

Lemma append_entry_lk X r es r' b : append_entry st r es = Ok (r', b) -> lk X r r'.
Proof.
  unfold append_entry, increase_uncommitted_size. intros H.
  destruct (_ && _ && _); cbn [negb] in H; [inv_ok; apply lk_refl|]. inv_ok.
  eapply lk_trans; [|eapply send_lk; eassumption]. lk_id.
Qed.

Lemma prop_gate_lk X es : forall r li i r' es', prop_gate r li i es = (r', es') -> lk X r r'.
Proof.
  induction es as [|e es IH]; intros r li i r' es' H; cbn in H; [inversion H; apply lk_refl|].
  destruct (is_cc_type (e_type e)); [destruct (_ && negb (r_disable_cc_validation r))|].
  (* the rest of the entries, from r or from r with the pending index set *)
  all: match type of H with (let '(_, _) := prop_gate ?rx _ _ _ in _) = _ =>
         destruct (prop_gate rx li (i + 1) es) eqn:E; apply IH in E; inversion H; subst;
         eapply lk_trans; [|exact E]; lk_id
       end.
Qed.

Lemma clear_recent_active_act r : act_in (fun i => i = r_id r) (clear_recent_active r).
Proof.
  unfold act_in, clear_recent_active. cbn. apply Forall_map, Forall_forall. intros [k p] _. cbn.
  destruct (N.eqb k (r_id r)) eqn:EK; cbn; [intros _; apply N.eqb_eq, EK|discriminate].
Qed.

Lemma clear_recent_active_lstate r : lstate (clear_recent_active r) = lstate r.
Proof. reflexivity. Qed.

Definition marks (m : message) : bool :=
  match m_type m with MsgAppResp | MsgHeartbeatResp => true | _ => false end.
Definition heard (m : message) : N -> Prop := fun i => marks m = true /\ i = m_from m.

(* [lk X r r'] where r' is r under setters that leave the bookkeeping and the tracker alone and
   under put_progress at a peer that the context says is in X *)
Ltac lk_put :=
  match goal with
  | |- lk _ ?r ?r => apply lk_refl
  | |- lk _ ?r (put_progress ?r' _ _) =>
      eapply (lk_trans _ _ r'); [lk_put | apply put_progress_lk; intros; right; assumption]
  | |- lk _ ?r (?f ?r' _) => eapply (lk_trans _ _ r'); [lk_put | lk_id]
  end.

(* ... followed by steps whose [lk] is in the context *)
Ltac lk_chain :=
  first [ solve [lk_put] | eapply lk_trans; [|eassumption]; lk_chain ].

(* the successful calls in the context, as [lk X] *)
Ltac lkf X :=
  repeat match goal with
  | H : send _ _ = Ok _ |- _ => apply (send_lk X) in H
  | H : send_append _ _ _ = Ok _ |- _ => apply send_append_emits, (emits_lk X) in H
  | H : bcast_append _ _ = Ok _ |- _ => apply bcast_append_emits, (emits_lk X) in H
  | H : bcast_heartbeat _ = Ok _ |- _ => apply bcast_heartbeat_emits, (emits_lk X) in H
  | H : release_pending_read_index _ _ = Ok _ |- _ => apply release_pending_read_index_emits, (emits_lk X) in H
  | H : send_append_loop _ _ _ _ = Ok _ |- _ => apply send_append_loop_emits, (emits_lk X) in H
  | H : send_timeout_now _ _ = Ok _ |- _ => apply send_timeout_now_emits, (emits_lk X) in H
  | H : respond_reads _ _ = Ok _ |- _ => apply respond_reads_emits, (emits_lk X) in H
  | H : send_msg_read_index_response _ _ = Ok _ |- _ => apply send_msg_read_index_response_emits, (emits_lk X) in H
  | H : maybe_commit _ _ = Ok (_, _) |- _ => apply (maybe_commit_lk X) in H
  | H : append_entry _ _ _ = Ok (_, _) |- _ => apply (append_entry_lk X) in H
  | H : append_entry _ _ _ = Ok ?x |- _ => destruct x
  | H : prop_gate _ _ _ _ = (_, _) |- _ => apply (prop_gate_lk X) in H
  end.

Lemma step_leader_lk r m r' e :
  m_type m <> MsgTransferLeader -> m_type m <> MsgCheckQuorum ->
  step_leader st r m = Ok (r', e) -> lk (heard m) r r'.
Proof.
  intros NT NC H. unfold step_leader in H.
  destruct (m_type m) eqn:T; try congruence.
  all: try (destruct (get_progress r (m_from m)) as [pr|] eqn:L; [|inversion H; apply lk_refl]).
  all: try (inversion H; subst; apply lk_refl).
  all: try (assert (HX : heard m (m_from m)) by (unfold heard, marks; rewrite T; auto)).
  - (* MsgBeat *) inv_ok. lkf (heard m). assumption.
  - (* MsgProp *)
    destruct (m_entries m) as [|e0 es]; [discriminate|].
    destruct (get_progress r (r_id r)); [|inversion H; apply lk_refl].
    destruct (negb _); [inversion H; apply lk_refl|].
    inv_ok; lkf (heard m); cbn [fst] in *; lk_chain.
  - (* MsgAppResp *) inv_ok; lkf (heard m); lk_chain.
  - (* MsgHeartbeatResp *) inv_ok; lkf (heard m); lk_chain.
  - (* MsgUnreachable *)
    inversion H; subst. apply emit_lk, E_progress with (p := pr); [exact L|].
    destruct (pr_state_eqb _ _); [one; apply op_probe|apply ops_refl].
  - (* MsgSnapStatus *)
    destruct (negb (pr_state_eqb _ _)); [inversion H; apply lk_refl|].
    inversion H; subst. apply emit_lk, E_progress with (p := pr); [exact L|].
    eapply ops_step; [apply op_paused|].
    destruct (negb (m_reject m)); (eapply ops_step; [apply op_probe|]); [apply ops_refl|one; apply op_pending_snapshot].
  - (* MsgReadIndex *)
    destruct (negb _).
    + inversion H; subst. lk_id.
    + inv_ok. lkf (heard m). assumption.
Qed.

Lemma step_leader_quiet X r m r' e :
  marks m = false -> m_type m <> MsgTransferLeader -> m_type m <> MsgCheckQuorum ->
  step_leader st r m = Ok (r', e) -> lk X r r'.
Proof.
  intros M NT NC H. eapply lk_weaken; [|eapply step_leader_lk; eassumption].
  intros i [F _]. congruence.
Qed.

Lemma step_leader_check_quorum r m r' e :
  m_type m = MsgCheckQuorum -> step_leader st r m = Ok (r', e) ->
  if quorum_active (r_trk r) then r' = clear_recent_active r else r_state r' = StateFollower.
Proof.
  intros T. unfold step_leader. rewrite T, if_negb. intros H.
  apply bind_ok in H. destruct H as (r1 & E & H). inversion H; subst.
  destruct (quorum_active (r_trk r)).
  - inversion E. reflexivity.
  - exact (become_follower_state _ _ _ _ _ E).
Qed.

(* a local message of the leader's own tick, or the proposal that leaves a joint configuration,
   passes the term check and the type switch unchanged *)
Lemma step_local_leader step_rec r m :
  m_term m = 0 -> r_state r = StateLeader ->
  m_type m = MsgBeat \/ m_type m = MsgCheckQuorum \/ m_type m = MsgProp ->
  step_gen st step_rec r m = step_leader st r m.
Proof.
  intros T0 SL T. rewrite (step_gen_local _ _ _ _ T0).
  unfold step_dispatch. rewrite SL.
  destruct T as [T|[T|T]]; rewrite T; reflexivity.
Qed.

(* the nested Step of appliedTo carries the leave-joint proposal only *)
Lemma applied_to_lk X r i s r' : applied_to (step_inner st) r i s = Ok r' -> lk X r r'.
Proof.
  intros H. destruct (applied_to_eq _ _ _ _ _ H) as (l & _ & K).
  eapply lk_trans; [apply (lk_same_trk X r (set_r_log r l)); reflexivity|].
  destruct (c_auto_leave _ && _ && state_type_eqb (r_state r) StateLeader) eqn:EC; [|rewrite K; apply lk_refl].
  apply andb_true_iff in EC. destruct EC as [_ EC]. destruct K as ([r2 e2] & ES & ->).
  unfold step_inner in ES. rewrite step_local_leader in ES.
  - apply (step_leader_quiet X) in ES; [exact ES|reflexivity|discriminate|discriminate].
  - reflexivity.
  - change (r_state r = StateLeader). destruct (r_state r); try discriminate EC; reflexivity.
  - right. right. reflexivity.
Qed.

Lemma applied_snap_lk X r s r' : applied_snap (step_inner st) r s = Ok r' -> lk X r r'.
Proof.
  unfold applied_snap. intros H. apply (applied_to_lk X) in H. eapply lk_trans; [|exact H]. lk_id.
Qed.

(* messages the theorem is about: anything a peer or a local thread can deliver, except the two
   local requests that restart the timer or are the check itself, and a vote request that claims to
   come from the candidate the leader voted for (itself) *)
Definition admissible (r : raft) (m : message) : Prop :=
  wf_msg m /\ m_type m <> MsgTransferLeader /\ m_type m <> MsgCheckQuorum /\
  (m_type m = MsgVote -> m_from m <> r_vote r).

Lemma step_dispatch_leader_lk r m r' e :
  r_state r = StateLeader -> r_lead r <> NoneId -> admissible r m ->
  step_dispatch st (step_inner st) r m = Ok (r', e) -> lk (heard m) r r'.
Proof.
  intros SL LD (WF & NT & NC & NV) H. unfold step_dispatch in H.
  destruct (m_type m) eqn:T; try congruence;
    try (rewrite SL in H; apply step_leader_lk in H; [exact H|rewrite T; discriminate|rewrite T; discriminate]).
  - (* MsgHup *)
    unfold hup in H. rewrite SL in H. cbn [state_type_eqb] in H. inv_ok. apply lk_refl.
  - (* MsgVote: the leader has voted for itself and knows a leader *)
    assert (NV' : r_vote r <> m_from m) by (intros E; exact (NV eq_refl (eq_sym E))).
    apply N.eqb_neq in NV', LD. rewrite NV', LD, andb_false_r in H. cbn [orb andb] in H.
    inv_ok. lkf (heard m). assumption.
  - (* MsgPreVote *) inv_ok; lkf (heard m); assumption.
  - (* MsgStorageAppendResp *)
    destruct (m_snapshot m) as [sn|]; inv_ok.
    + match goal with E : applied_snap _ _ _ = Ok _ |- _ => apply (applied_snap_lk (heard m)) in E; eapply lk_trans; [|exact E] end.
      destruct (negb _); [lk_id|apply lk_refl].
    + destruct (negb _); [lk_id|apply lk_refl].
  - (* MsgStorageApplyResp *)
    destruct (last_opt (m_entries m)); inv_ok; [|apply lk_refl].
    match goal with E : applied_to _ _ _ _ = Ok _ |- _ => apply (applied_to_lk (heard m)) in E; eapply lk_trans; [exact E|] end.
    unfold reduce_uncommitted_size. destruct (_ <? _); lk_id.
Qed.

(* the term check at the top of Step, by what it does to the state *)
Lemma step_preamble_cases step_rec r m r1 c :
  step_preamble st step_rec r m = Ok (r1, c) ->
  r1 = r \/
  (c = true /\ r_term r < m_term m /\ exists l, become_follower st r (m_term m) l = Ok r1) \/
  (c = false /\ ((exists a, send r a = Ok r1) \/ exists s, applied_snap step_rec r s = Ok r1)).
Proof.
  unfold step_preamble. intros H.
  destruct (N.eqb (m_term m) 0); [inv_ok; left; reflexivity|].
  destruct (r_term r <? m_term m) eqn:E1.
  - apply N.ltb_lt in E1. inv_ok; try (left; reflexivity); right; left; eauto.
  - inv_ok; try (left; reflexivity); right; right; (split; [reflexivity|]); eauto.
Qed.

Theorem step_leader_frame r m r' e :
  r_state r = StateLeader -> r_lead r <> NoneId -> admissible r m ->
  step st r m = Ok (r', e) ->
  r_state r' = StateLeader -> r_term r' = r_term r -> lk (heard m) r r'.
Proof.
  intros SL LD AD H SL' TT. unfold step, step_gen in H.
  apply bind_ok in H. destruct H as ([r1 c] & EP & H).
  destruct (step_preamble_cases _ _ _ _ _ EP) as [->|[(-> & LT & l & EB)|(-> & [(a & ES)|(s & EA)])]]; cbn [negb] in H.
  - destruct c; cbn [negb] in H; [eapply step_dispatch_leader_lk; eassumption|inv_ok; apply lk_refl].
  - (* the node has followed a higher term and cannot be back at the old one *)
    exfalso. destruct (become_follower_mono _ _ _ _ _ (N.lt_le_incl _ _ LT) EB) as (_ & T1 & _).
    apply step_dispatch_steps in H; [|apply step_inner_steps|right; left; exact T1].
    apply steps_mono in H; [|apply AD]. destruct H as (TL & _). cbn in TL. lia.
  - inv_ok. eapply send_lk; eassumption.
  - inv_ok. eapply applied_snap_lk; eassumption.
Qed.

Lemma lk_nobody r r' : lk nobody r r' -> lstate r' = lstate r /\ forall S, act_in S r -> act_in S r'.
Proof.
  intros [L A]. split; [exact L|]. intros S HS. eapply act_in_weaken; [|apply A, HS].
  cbn. unfold nobody. tauto.
Qed.

Lemma tick_beat_lk r r' : tick_beat st r = Ok r' -> lk nobody r r'.
Proof.
  unfold tick_beat. intros H.
  destruct (r_state r) eqn:SL; cbn [state_type_eqb negb] in H; try (inv_ok; apply lk_refl).
  destruct (_ <=? _); [|inv_ok; apply lk_refl].
  unfold step in H. rewrite step_local_leader in H; [|reflexivity|exact SL|left; reflexivity].
  apply bind_ok in H. destruct H as ([r2 e2] & ES & H). inv_ok.
  apply (step_leader_quiet nobody) in ES; [|reflexivity|discriminate|discriminate].
  eapply lk_trans; [|exact ES]. lk_id.
Qed.

Lemma tick_check_lk r r' :
  r_state r = StateLeader -> r_check_quorum r = true -> tick_check st r = Ok r' ->
  if quorum_active (r_trk r) then lk nobody (clear_recent_active r) r' else r_state r' = StateFollower.
Proof.
  unfold tick_check. intros SL CQ H. rewrite CQ in H.
  unfold step in H. rewrite step_local_leader in H; [|reflexivity|exact SL|right; left; reflexivity].
  apply bind_ok in H. destruct H as (r2 & E2 & H).
  apply bind_ok in E2. destruct E2 as ([r3 e3] & ES & E2). injection E2 as <-.
  apply step_leader_check_quorum in ES; [|reflexivity]. cbn [fst] in H.
  destruct (quorum_active (r_trk r)).
  - subst r3. change (r_state (clear_recent_active r)) with (r_state r) in H. rewrite SL in H.
    cbn [state_type_eqb andb] in H. destruct (negb _); [|inv_ok; apply lk_refl].
    apply (applied_to_lk nobody) in H. eapply lk_trans; [|exact H]. lk_id.
  - rewrite ES in H. cbn [state_type_eqb andb] in H. inv_ok. exact ES.
Qed.

(* the bookkeeping without the election timer *)
Definition lstate0 (r : raft) := lstate (set_r_election_elapsed r 0).

Lemma lstate_lstate0 r r' : lstate r' = lstate r -> lstate0 r' = lstate0 r /\ r_election_elapsed r' = r_election_elapsed r.
Proof. unfold lstate0, lstate. cbn. intros H. inversion H. split; congruence. Qed.

Definition still (r0 r : raft) : Prop := r_state r = StateLeader /\ r_term r = r_term r0.

Lemma lstate0_still r r' : lstate0 r' = lstate0 r -> r_state r = StateLeader -> still r r'.
Proof. unfold lstate0, lstate, still. cbn. intros H SL. inversion H. split; congruence. Qed.

Theorem tick_leader r r' :
  r_state r = StateLeader -> r_check_quorum r = true -> r_lead r <> NoneId ->
  tick st r = Ok r' -> r_state r' = StateLeader -> r_term r' = r_term r ->
  lstate0 r' = lstate0 r /\
  if r_election_timeout r <=? r_election_elapsed r + 1
  then quorum_active (r_trk r) = true /\ r_election_elapsed r' = 0 /\ act_in (fun i => i = r_id r) r'
  else r_election_elapsed r' = r_election_elapsed r + 1 /\ forall S, act_in S r -> act_in S r'.
Proof.
  intros SL CQ LD H SL' TT. unfold tick in H. rewrite SL, tick_heartbeat_stages in H.
  apply bind_ok in H. destruct H as (r1 & E1 & E2).
  apply tick_beat_lk, lk_nobody in E2. destruct E2 as [LB AB].
  destruct (r_election_timeout r <=? r_election_elapsed r + 1).
  - apply tick_check_lk in E1; [|exact SL|exact CQ].
    change (r_trk (set_r_election_elapsed (tick_timers r) 0)) with (r_trk r) in E1.
    destruct (quorum_active (r_trk r)).
    + apply lk_nobody in E1. destruct E1 as [L1 A1].
      destruct (lstate_lstate0 _ _ (eq_trans LB L1)) as [L0 EE].
      split; [exact L0|]. split; [reflexivity|]. split; [exact EE|].
      apply AB, A1. exact (clear_recent_active_act _).
    + exfalso. unfold lstate in LB. inversion LB. congruence.
  - inv_ok. destruct (lstate_lstate0 _ _ LB) as [L0 EE]. split; [exact L0|]. split; [exact EE|exact AB].
Qed.

Inductive lop := LTick | LStep (m : message).

Definition lop_step (r : raft) (o : lop) : res raft :=
  match o with
  | LTick => tick st r
  | LStep m => do x <- step st r m; Ok (fst x)
  end.

Fixpoint lrun (r : raft) (ops : list lop) : res raft :=
  match ops with
  | [] => Ok r
  | o :: rest => do r1 <- lop_step r o; lrun r1 rest
  end.

Fixpoint ticks (ops : list lop) : N :=
  match ops with
  | [] => 0
  | LTick :: rest => 1 + ticks rest
  | LStep _ :: rest => ticks rest
  end.

(* the peers in H together with the leader are not a quorum: the decision function of C12 does not
   say Won for any vote assignment in which only they said yes *)
Definition no_quorum (r : raft) (H : list N) : Prop :=
  forall votes, (forall id, alookup votes id = Some true -> id = r_id r \/ In id H) ->
  joint_vote (c_voters (t_config (r_trk r))) (c_outgoing (t_config (r_trk r))) votes <> VoteWon.

Lemma quorum_active_votes S r :
  act_in S r -> quorum_active (r_trk r) = true ->
  exists votes, (forall id, alookup votes id = Some true -> S id) /\
    joint_vote (c_voters (t_config (r_trk r))) (c_outgoing (t_config (r_trk r))) votes = VoteWon.
Proof.
  unfold quorum_active, act_in. intros A Q.
  set (votes := map (fun kv => (fst kv, pr_recent_active (snd kv)))
                    (filter (fun kv => negb (pr_is_learner (snd kv))) (t_progress (r_trk r)))) in *.
  exists votes. split.
  - intros id L. apply alookup_in in L. apply in_map_iff in L. destruct L as ([k p] & E & Hin).
    cbn in E. inversion E; subst. apply filter_In in Hin. destruct Hin as [Hin _].
    rewrite Forall_forall in A. apply (A _ Hin). cbn. assumption.
  - destruct (joint_vote _ _ votes); try discriminate Q. reflexivity.
Qed.

Definition left_term (r0 : raft) (ops : list lop) : Prop :=
  exists ops1 ops2 rm, ops = ops1 ++ ops2 /\ lrun r0 ops1 = Ok rm /\ ~ still r0 rm.

Lemma still_dec r0 r : still r0 r \/ ~ still r0 r.
Proof.
  unfold still. destruct (r_state r); try (right; intros [A _]; discriminate).
  destruct (N.eq_dec (r_term r) (r_term r0)); [left; auto|right; tauto].
Qed.

Lemma ticks_cons o ops : ticks (o :: ops) = ticks [o] + ticks ops /\ ticks [o] <= 1.
Proof. destruct o; cbn [ticks]; lia. Qed.

Section Window.
Variable r0 : raft.
Variable H : list N.
Hypothesis NQ : no_quorum r0 H.
Hypothesis ET1 : 1 <= r_election_timeout r0.

Definition inwin (r : raft) : Prop :=
  lstate0 r = lstate0 r0 /\ r_state r = StateLeader /\ r_check_quorum r = true /\ r_lead r <> NoneId.

Definition ops_ok (ops : list lop) : Prop :=
  Forall (fun o => match o with
                   | LTick => True
                   | LStep m => admissible r0 m /\ (marks m = true -> In (m_from m) H)
                   end) ops.

Lemma inwin_facts r : inwin r ->
  r_id r = r_id r0 /\ r_term r = r_term r0 /\ r_vote r = r_vote r0 /\
  r_election_timeout r = r_election_timeout r0 /\ t_config (r_trk r) = t_config (r_trk r0).
Proof. unfold inwin, lstate0, lstate. cbn. intros (L & _). inversion L. repeat split; congruence. Qed.

Lemma inwin_next r r' : inwin r -> lstate0 r' = lstate0 r -> inwin r'.
Proof.
  unfold inwin, lstate0, lstate. cbn. intros (L & SL & CQ & LD) L'. inversion L'.
  split; [congruence|]. split; [congruence|]. split; congruence.
Qed.

Lemma admissible_transfer r m : inwin r -> admissible r0 m -> admissible r m.
Proof.
  intros W (A & B & C & D). destruct (inwin_facts _ W) as (_ & _ & V & _).
  unfold admissible. rewrite V. auto.
Qed.

(* ticks still needed before the next check *)
Definition to_check (r : raft) : N := N.max 1 (r_election_timeout r0 - r_election_elapsed r).

Lemma lop_step_inwin r o r1 :
  inwin r -> lop_step r o = Ok r1 ->
  match o with LTick => True | LStep m => admissible r0 m /\ (marks m = true -> In (m_from m) H) end ->
  ~ still r0 r1 \/
  (inwin r1 /\
   ((quorum_active (r_trk r) = true /\ act_in (fun i => i = r_id r0) r1) \/
    (to_check r1 + ticks [o] = to_check r /\
     forall S : N -> Prop, (forall i, In i H -> S i) -> act_in S r -> act_in S r1))).
Proof.
  intros W HS OK. destruct (still_dec r0 r1) as [[S1 T1]|NS]; [right|left; exact NS].
  pose proof W as (_ & SL & CQ & LD).
  destruct (inwin_facts _ W) as (ID & TM & _ & ETO & _). rewrite <- TM in T1.
  destruct o as [|m]; cbn [lop_step] in HS.
  - destruct (tick_leader _ _ SL CQ LD HS S1 T1) as [L0 REST].
    split; [exact (inwin_next _ _ W L0)|]. rewrite ETO, ID in REST.
    destruct (_ <=? _) eqn:EF.
    + left. destruct REST as (QA & _ & A1). auto.
    + right. destruct REST as [EE AA]. split; [|intros S _; apply AA].
      apply N.leb_gt in EF. unfold to_check. cbn [ticks]. lia.
  - destruct OK as [AD MK]. apply bind_ok in HS. destruct HS as ([r2 e2] & ES & HS).
    injection HS as <-.
    destruct (step_leader_frame _ _ _ _ SL LD (admissible_transfer _ _ W AD) ES S1 T1) as [L1 A1].
    destruct (lstate_lstate0 _ _ L1) as [L0 EE].
    split; [exact (inwin_next _ _ W L0)|]. right. split; [unfold to_check; cbn [ticks fst]; lia|].
    intros S SH AS. eapply act_in_weaken; [|apply A1; exact AS].
    cbn. intros i [Hi|[Mk ->]]; [exact Hi|]. apply SH, MK, Mk.
Qed.

(* Before the first check inside the window anybody may be marked, and a full election timeout
   follows it; after it everybody marked is the leader or in H, and the next check ends the
   leadership *)
Lemma window_run : forall ops r rf,
  inwin r -> ops_ok ops -> lrun r ops = Ok rf ->
  to_check r + r_election_timeout r0 <= ticks ops \/
  (act_in (fun i => i = r_id r0 \/ In i H) r /\ to_check r <= ticks ops) ->
  exists ops1 ops2 rm, ops = ops1 ++ ops2 /\ lrun r ops1 = Ok rm /\ ~ still r0 rm.
Proof.
  induction ops as [|o ops IH]; intros r rf W OK R TK.
  - unfold to_check in TK. cbn [ticks] in TK. lia.
  - cbn [lrun] in R. apply bind_ok in R. destruct R as (r1 & E1 & R).
    inversion OK as [|? ? O1 O2]; subst.
    destruct (lop_step_inwin _ _ _ W E1 O1) as [NS|[W1 REST]].
    + exists [o], ops, r1. split; [reflexivity|]. split; [cbn; rewrite E1; reflexivity|exact NS].
    + destruct (IH r1 rf W1 O2 R) as (ops1 & ops2 & rm & EQ & RR & NS).
      { destruct (ticks_cons o ops) as [TC T1]. rewrite TC in TK.
        destruct REST as [[QA A1]|[TN AA]].
        - destruct TK as [TK|[A _]].
          + right. split; [eapply act_in_weaken; [|exact A1]; cbn; auto|]. unfold to_check in *. lia.
          + (* the check fired although only the leader and H are marked *)
            exfalso. destruct (quorum_active_votes _ _ A QA) as (votes & VS & VW).
            destruct (inwin_facts _ W) as (_ & _ & _ & _ & CF). rewrite CF in VW.
            exact (NQ votes VS VW).
        - destruct TK as [TK|[A TK]]; [left; lia|right].
          split; [apply AA; [auto|exact A]|lia]. }
      exists (o :: ops1), ops2, rm. split; [cbn; congruence|]. split; [|exact NS].
      cbn. rewrite E1. exact RR.
Qed.

End Window.

(* CheckQuorum: a leader that, over a sequence of ticks and messages, hears (MsgAppResp,
   MsgHeartbeatResp) only from peers that together with itself are not a quorum, is no longer
   leader of its term after at most two election timeouts of ticks.  The sequence may contain any
   other message of any type, term and content; it contains no leadership-transfer request (which
   restarts the timer) *)
Theorem check_quorum_steps_down r H ops rf :
  r_state r = StateLeader -> r_check_quorum r = true -> r_lead r <> NoneId ->
  1 <= r_election_timeout r ->
  no_quorum r H -> ops_ok r H ops ->
  lrun r ops = Ok rf -> 2 * r_election_timeout r <= ticks ops ->
  left_term r ops.
Proof.
  intros SL CQ LD ET1 NQ OK R TK. unfold left_term.
  eapply (window_run r H NQ ET1); [|exact OK|exact R|left; unfold to_check; lia].
  unfold inwin. auto.
Qed.

(* a boolean test that a run never leaves the leadership of its term (used to refute the
   statement without the exclusion of leadership-transfer requests on a concrete run) *)
Definition still_b (r0 r : raft) : bool :=
  state_type_eqb (r_state r) StateLeader && N.eqb (r_term r) (r_term r0).

Lemma still_b_spec r0 r : still_b r0 r = true -> still r0 r.
Proof.
  unfold still_b, still. intros H. apply andb_true_iff in H. destruct H as [A B].
  apply N.eqb_eq in B. split; [|exact B]. destruct (r_state r); try discriminate A; reflexivity.
Qed.

Fixpoint stays (r0 r : raft) (ops : list lop) : bool :=
  still_b r0 r &&
  match ops with
  | [] => true
  | o :: rest => match lop_step r o with Ok r1 => stays r0 r1 rest | Panic _ => false end
  end.

Lemma stays_prefix r0 : forall ops1 ops2 r rm,
  stays r0 r (ops1 ++ ops2) = true -> lrun r ops1 = Ok rm -> still r0 rm.
Proof.
  induction ops1 as [|o ops1 IH]; intros ops2 r rm ST R.
  - cbn in R. inversion R; subst. apply still_b_spec.
    destruct ops2; cbn in ST; apply andb_true_iff in ST; tauto.
  - cbn [app stays] in ST. apply andb_true_iff in ST. destruct ST as [_ ST].
    cbn [lrun] in R. destruct (lop_step r o) as [r1|]; cbn [bind] in R; [|discriminate].
    eapply IH; eassumption.
Qed.

Lemma stays_not_left r ops : stays r r ops = true -> ~ left_term r ops.
Proof.
  intros ST (ops1 & ops2 & rm & E & R & NS). subst ops. apply NS. eapply stays_prefix; eassumption.
Qed.

End WithStorage.
