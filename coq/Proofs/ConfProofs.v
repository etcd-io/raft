(* ConfProofs.v: the configuration algebra keeps its invariants (C13).

   Every operation of the Changer (makeVoter, makeLearner, remove) acts on one id, and what it
   does there depends only on where that id stands: in which of the four sets it is and whether
   it has a progress record marked as learner.  [stand] collects exactly that for one id, the
   operations become functions on it ([voter_at], [remove_at], [learner_at]), and an invariant
   or a set of the result is read off by going through the finitely many standings. *)
From Coq Require Import List NArith Bool Lia.
From RaftV Require Import AssocFacts Base Types Quorum Progress Tracker.
Import ListNotations.
Open Scope N_scope.

Lemma joint_ids_In c0 c1 x : In x (joint_ids c0 c1) <-> In x c0 \/ In x c1.
Proof. unfold joint_ids, sunion. rewrite !fold_sinsert_In. cbn. tauto. Qed.

(* the invariants of C13 as a proposition *)
Definition cfg_wf (c : config) (p : progress_map) : Prop :=
  (forall id, In id (c_voters c) \/ In id (c_outgoing c) \/ In id (c_learners c) \/ In id (c_learners_next c) ->
              amem p id = true) /\
  (forall id, In id (c_learners_next c) ->
              In id (c_outgoing c) /\ exists pr, alookup p id = Some pr /\ pr_is_learner pr = false) /\
  (forall id, In id (c_learners c) ->
              ~ In id (c_outgoing c) /\ ~ In id (c_voters c) /\
              exists pr, alookup p id = Some pr /\ pr_is_learner pr = true) /\
  (c_outgoing c = [] -> c_learners_next c = [] /\ c_auto_leave c = false).

Lemma joint_false c : joint c = false <-> c_outgoing c = [].
Proof. unfold joint. rewrite negb_false_iff. apply nlen_zero. Qed.

Theorem check_invariants_sound c p : check_invariants c p = true -> cfg_wf c p.
Proof.
  unfold check_invariants, cfg_wf. intros H.
  rewrite !andb_true_iff in H. destruct H as (((((C1 & C2) & C3) & C4) & C5) & C6).
  rewrite forallb_forall in C1, C2, C3, C4, C5. unfold has_progress in *.
  split; [|split; [|split]].
  - intros id Hid. destruct Hid as [Hid|[Hid|[Hid|Hid]]]; auto.
    + apply C1. unfold voter_ids. apply joint_ids_In. auto.
    + apply C1. unfold voter_ids. apply joint_ids_In. auto.
  - intros id Hid. specialize (C4 _ Hid). apply andb_true_iff in C4. destruct C4 as [A B]. split.
    + apply smem_In. exact A.
    + destruct (alookup p id) as [pr|]; [|discriminate]. exists pr. split; [reflexivity|].
      apply negb_true_iff. exact B.
  - intros id Hid. specialize (C5 _ Hid). apply andb_true_iff in C5. destruct C5 as [A B].
    apply andb_true_iff in A. destruct A as [A1 A2]. apply negb_true_iff in A1, A2. repeat split.
    + intros I. apply smem_In in I. congruence.
    + intros I. apply smem_In in I. congruence.
    + destruct (alookup p id) as [pr|]; [|discriminate]. exists pr. split; [reflexivity|exact B].
  - intros E. apply joint_false in E. rewrite E in C6. apply andb_true_iff in C6. destruct C6 as [A B].
    split; [apply nlen_zero; exact A|apply negb_true_iff; exact B].
Qed.

Lemma check_and_return_ok c p c' p' : check_and_return c p = inl (c', p') -> c' = c /\ p' = p /\ check_invariants c p = true.
Proof. unfold check_and_return. destruct (check_invariants c p); intros H; inversion H; auto. Qed.

(* where one id stands: incoming voter, outgoing voter, learner, staged learner (LearnersNext),
   and the IsLearner mark of its progress record, if it has one *)
Record standing := mkSt { st_voter : bool; st_outgoing : bool; st_learner : bool; st_next : bool; st_mark : option bool }.

Definition stand (c : config) (p : progress_map) (x : N) : standing :=
  mkSt (smem (c_voters c) x) (smem (c_outgoing c) x) (smem (c_learners c) x) (smem (c_learners_next c) x)
      (option_map pr_is_learner (alookup p x)).

Definition stands (s : config * progress_map) : N -> standing := stand (fst s) (snd s).

(* makeVoter: a known id is also taken out of Learners and LearnersNext *)
Definition voter_at (m : standing) : standing :=
  match st_mark m with
  | None => mkSt true (st_outgoing m) (st_learner m) (st_next m) (Some false)
  | Some _ => mkSt true (st_outgoing m) false false (Some false)
  end.

(* remove: nothing to do for an unknown id; an outgoing voter keeps its record *)
Definition remove_at (m : standing) : standing :=
  match st_mark m with
  | None => m
  | Some q => mkSt false (st_outgoing m) false false (if st_outgoing m then Some q else None)
  end.

(* makeLearner: nothing to do for a learner; a voter is removed first and then, if it is an
   outgoing voter, only staged in LearnersNext with its record unchanged *)
Definition learner_at (m : standing) : standing :=
  match st_mark m with
  | None => mkSt (st_voter m) (st_outgoing m) true (st_next m) (Some true)
  | Some true => m
  | Some false => if st_outgoing m then mkSt false true false true (Some false) else mkSt false false true false (Some true)
  end.

Lemma make_voter_at mi mb li c p id :
  let r := make_voter mi mb li c p id in
  c_outgoing (fst r) = c_outgoing c /\ c_auto_leave (fst r) = c_auto_leave c /\
  forall x, stands r x = if x =? id then voter_at (stand c p x) else stand c p x.
Proof.
  unfold make_voter, init_progress, voter_at, stands, stand.
  destruct (alookup p id) as [pr|] eqn:E; cbn; repeat split; intros x;
    rewrite ?smem_sinsert, ?smem_sremove, alookup_ainsert; destruct (N.eqb_spec x id) as [->|]; rewrite ?E; reflexivity.
Qed.

Lemma cc_remove_at c p id :
  let r := cc_remove c p id in
  c_outgoing (fst r) = c_outgoing c /\ c_auto_leave (fst r) = c_auto_leave c /\
  forall x, stands r x = if x =? id then remove_at (stand c p x) else stand c p x.
Proof.
  unfold cc_remove, has_progress, amem, remove_at, stands, stand.
  destruct (alookup p id) as [pr|] eqn:E; cbn.
  - destruct (smem (c_outgoing c) id) eqn:SM; cbn; repeat split; intros x;
      rewrite !smem_sremove, ?alookup_aremove; destruct (N.eqb_spec x id) as [->|]; rewrite ?E, ?SM; reflexivity.
  - repeat split. intros x. destruct (N.eqb_spec x id) as [->|]; rewrite ?E; reflexivity.
Qed.

Lemma make_learner_at mi mb li c p id :
  let r := make_learner mi mb li c p id in
  c_outgoing (fst r) = c_outgoing c /\ c_auto_leave (fst r) = c_auto_leave c /\
  forall x, stands r x = if x =? id then learner_at (stand c p x) else stand c p x.
Proof.
  unfold make_learner, init_progress, cc_remove, has_progress, amem, learner_at, stands, stand.
  destruct (alookup p id) as [pr|] eqn:E; cbn.
  - destruct (pr_is_learner pr) eqn:PL; cbn.
    + repeat split. intros x. destruct (N.eqb_spec x id) as [->|]; rewrite ?E; cbn; rewrite ?PL; reflexivity.
    + destruct (smem (c_outgoing c) id) eqn:SM; cbn; rewrite SM; cbn; repeat split; intros x;
        rewrite ?smem_sinsert, !smem_sremove, alookup_ainsert, ?alookup_aremove; destruct (N.eqb_spec x id) as [->|];
        rewrite ?E, ?SM; cbn; rewrite ?PL; reflexivity.
  - repeat split. intros x.
    rewrite smem_sinsert, alookup_ainsert. destruct (N.eqb_spec x id) as [->|]; rewrite ?E; reflexivity.
Qed.

Lemma remove_at_idem m : remove_at (remove_at m) = remove_at m.
Proof. destruct m as [v o l n [q|]]; destruct o; reflexivity. Qed.

Lemma learner_at_idem m : learner_at (learner_at m) = learner_at m.
Proof. destruct m as [v o l n [[|]|]]; try destruct o; reflexivity. Qed.

Section Run.
Variables mi mb li : N.

(* Changer.apply without its two ways of failing: an unknown change type, which the loop
   rejects, is skipped here, and the final "removed all voters" test is left out.  What is left
   is total and composes over [++]. *)
Definition cc_step (s : config * progress_map) (cc : cc_single) : config * progress_map :=
  if ccs_node cc =? 0 then s else
  match ccs_type cc with
  | CCAddNode => make_voter mi mb li (fst s) (snd s) (ccs_node cc)
  | CCRemoveNode => cc_remove (fst s) (snd s) (ccs_node cc)
  | CCAddLearnerNode => make_learner mi mb li (fst s) (snd s) (ccs_node cc)
  | CCUpdateNode | CCUnknown => s
  end.

Fixpoint cc_run (s : config * progress_map) (ccs : list cc_single) : config * progress_map :=
  match ccs with
  | [] => s
  | cc :: rest => cc_run (cc_step s cc) rest
  end.

Lemma cc_apply_run ccs : forall c p r,
  cc_apply mi mb li c p ccs = inl r -> r = cc_run (c, p) ccs /\ c_voters (fst r) <> [].
Proof.
  induction ccs as [|cc ccs IH]; intros c p r H; cbn [cc_apply cc_run] in *.
  - destruct (N.eqb (nlen (c_voters c)) 0) eqn:Z; [discriminate|]. inversion H. split; [reflexivity|].
    cbn. intros E. apply nlen_zero in E. congruence.
  - unfold cc_step. cbn [fst snd]. destruct (N.eqb (ccs_node cc) 0); [apply IH; exact H|].
    destruct (ccs_type cc); try discriminate; try (apply IH; exact H).
    + destruct (make_voter _ _ _ _ _ _); apply IH; exact H.
    + destruct (cc_remove _ _ _); apply IH; exact H.
    + destruct (make_learner _ _ _ _ _ _); apply IH; exact H.
Qed.

Lemma cc_run_app a : forall b s, cc_run s (a ++ b) = cc_run (cc_run s a) b.
Proof. induction a as [|cc a IH]; intros b s; cbn [app cc_run]; [reflexivity|apply IH]. Qed.

Definition cc_at (ty : cc_type) : standing -> standing :=
  match ty with
  | CCAddNode => voter_at
  | CCRemoveNode => remove_at
  | CCAddLearnerNode => learner_at
  | CCUpdateNode | CCUnknown => fun m => m
  end.

Lemma cc_step_at s cc :
  c_outgoing (fst (cc_step s cc)) = c_outgoing (fst s) /\ c_auto_leave (fst (cc_step s cc)) = c_auto_leave (fst s) /\
  forall x, stands (cc_step s cc) x =
            if negb (ccs_node cc =? 0) && (x =? ccs_node cc) then cc_at (ccs_type cc) (stands s x) else stands s x.
Proof.
  unfold cc_step. destruct (ccs_node cc =? 0); cbn [negb andb]; [auto|].
  destruct (ccs_type cc); cbn [cc_at].
  - apply make_voter_at.
  - apply cc_remove_at.
  - repeat split. intros x. destruct (x =? _); reflexivity.
  - apply make_learner_at.
  - repeat split. intros x. destruct (x =? _); reflexivity.
Qed.

Lemma cc_run_outgoing ccs : forall s,
  c_outgoing (fst (cc_run s ccs)) = c_outgoing (fst s) /\ c_auto_leave (fst (cc_run s ccs)) = c_auto_leave (fst s).
Proof.
  induction ccs as [|cc ccs IH]; intros s; cbn [cc_run]; [auto|].
  destruct (IH (cc_step s cc)) as [-> ->]. destruct (cc_step_at s cc) as (O & A & _). auto.
Qed.

Lemma cc_run_good (good : standing -> bool) :
  (forall ty m, good m = true -> good (cc_at ty m) = true) ->
  forall ccs s, (forall x, good (stands s x) = true) -> forall x, good (stands (cc_run s ccs) x) = true.
Proof.
  intros F. induction ccs as [|cc ccs IH]; intros s G; cbn [cc_run]; [exact G|].
  apply IH. intros x. destruct (cc_step_at s cc) as (_ & _ & V). rewrite V. destruct (_ && _); auto.
Qed.

Definition named (ids : list N) (x : N) : bool := smem ids x && negb (x =? 0).

(* One operation over a list of ids, as toConfChangeSingle produces them: it happens to the
   ids of the list except 0.  A repeated id meets the operation twice, so it has to be
   idempotent on the standings present. *)
Lemma cc_run_map ty : forall ids s,
  (forall x, cc_at ty (cc_at ty (stands s x)) = cc_at ty (stands s x)) ->
  forall x, stands (cc_run s (map (mkCCS ty) ids)) x = if named ids x then cc_at ty (stands s x) else stands s x.
Proof.
  induction ids as [|id ids IH]; intros s I x; cbn [map cc_run]; [reflexivity|].
  destruct (cc_step_at s (mkCCS ty id)) as (_ & _ & V). cbn [ccs_node ccs_type] in V.
  rewrite IH; [|intros y; rewrite V; destruct (_ && _); rewrite ?I; reflexivity].
  rewrite V. unfold named. cbn [smem]. destruct (N.eqb_spec x id) as [->|]; [|rewrite andb_false_r; reflexivity].
  destruct (negb (id =? 0)); cbn [andb]; [|rewrite andb_false_r; reflexivity].
  rewrite I. destruct (_ && _); reflexivity.
Qed.
End Run.

Lemma changer_simple_inv t li ccs c p :
  changer_simple t li ccs = inl (c, p) ->
  check_invariants (cfg_clone (t_config t)) (t_progress t) = true /\ c_outgoing (t_config t) = [] /\
  (c, p) = cc_run (t_max_inflight t) (t_max_inflight_bytes t) li (cfg_clone (t_config t), t_progress t) ccs /\
  c_voters c <> [] /\ c_outgoing c = [] /\ symdiff (c_voters (t_config t)) (c_voters c) <= 1 /\
  check_invariants c p = true.
Proof.
  unfold changer_simple. intros H.
  destruct (check_and_return (cfg_clone (t_config t)) (t_progress t)) as [[c0 p0]|] eqn:E0; [|discriminate].
  apply check_and_return_ok in E0. destruct E0 as (-> & -> & I0).
  destruct (joint _) eqn:J; [discriminate|]. apply joint_false in J.
  destruct (cc_apply _ _ _ _ _ _) as [[c2 p2]|] eqn:EA; [|discriminate].
  destruct (1 <? symdiff _ _) eqn:SD; [discriminate|]. apply N.ltb_ge in SD.
  apply check_and_return_ok in H. destruct H as (-> & -> & I2).
  apply cc_apply_run in EA. destruct EA as [R V].
  assert (O : c_outgoing (fst (c2, p2)) = []) by (rewrite R, (proj1 (cc_run_outgoing _ _ _ _ _)); exact J).
  auto 8.
Qed.

Lemma changer_enter_joint_inv t li al ccs c p :
  changer_enter_joint t li al ccs = inl (c, p) ->
  check_invariants (cfg_clone (t_config t)) (t_progress t) = true /\ c_outgoing (t_config t) = [] /\
  c_voters (t_config t) <> [] /\
  exists c2, (c2, p) = cc_run (t_max_inflight t) (t_max_inflight_bytes t) li
                         (cfg_with_outgoing (cfg_clone (t_config t)) (c_voters (t_config t)), t_progress t) ccs /\
    c_voters c2 <> [] /\ c_outgoing c2 = c_voters (t_config t) /\ c = cfg_with_auto_leave c2 al /\
    check_invariants c p = true.
Proof.
  unfold changer_enter_joint. intros H.
  destruct (check_and_return (cfg_clone (t_config t)) (t_progress t)) as [[c0 p0]|] eqn:E0; [|discriminate].
  apply check_and_return_ok in E0. destruct E0 as (-> & -> & I0).
  destruct (joint _) eqn:J; [discriminate|]. apply joint_false in J.
  destruct (N.eqb (nlen _) 0) eqn:Z; [discriminate|].
  destruct (cc_apply _ _ _ _ _ _) as [[c2 p2]|] eqn:EA; [|discriminate].
  apply check_and_return_ok in H. destruct H as (-> & -> & I2).
  apply cc_apply_run in EA. destruct EA as [R V].
  split; [exact I0|]. split; [exact J|]. split; [intros E; apply nlen_zero in E; cbn in Z; congruence|].
  exists c2. split; [exact R|]. split; [exact V|]. split; [|auto].
  change c2 with (fst (c2, p2)). rewrite R. apply cc_run_outgoing.
Qed.

Lemma fold_mark_amem (f : progress -> progress) : forall l (p : progress_map) i,
  amem (fold_left (fun p id => match alookup p id with Some pr => ainsert p id (f pr) | None => p end) l p) i = amem p i.
Proof.
  induction l as [|id l IH]; intros p i; cbn [fold_left]; [reflexivity|]. rewrite IH.
  destruct (alookup p id) as [pr|] eqn:E; [|reflexivity]. rewrite amem_ainsert.
  destruct (N.eqb_spec i id) as [->|]; [|reflexivity]. unfold amem. rewrite E. reflexivity.
Qed.

Lemma fold_drop_amem (cond : N -> bool) : forall l (p : progress_map) i,
  amem (fold_left (fun p id => if cond id then aremove p id else p) l p) i = true ->
  amem p i = true /\ (In i l -> cond i = false).
Proof.
  induction l as [|id l IH]; intros p i H; cbn [fold_left] in H; [split; [exact H|intros []]|].
  apply IH in H. destruct H as [H1 H2]. destruct (cond id) eqn:CD.
  - rewrite amem_aremove in H1. apply andb_true_iff in H1. destruct H1 as [NE AM]. split; [exact AM|].
    intros [->|I]; [rewrite N.eqb_refl in NE; discriminate|auto].
  - split; [exact H1|]. intros [->|I]; auto.
Qed.

(* LeaveJoint: LearnersNext become learners; an outgoing voter keeps its progress record only
   if it is still a voter or a learner *)
Lemma changer_leave_joint_inv t c p :
  changer_leave_joint t = inl (c, p) ->
  c_outgoing (t_config t) <> [] /\ check_invariants c p = true /\
  c_voters c = c_voters (t_config t) /\ c_outgoing c = [] /\ c_learners_next c = [] /\ c_auto_leave c = false /\
  c_learners c = fold_left sinsert (c_learners_next (t_config t)) (c_learners (t_config t)) /\
  forall i, amem p i = true ->
    amem (t_progress t) i = true /\ (In i (c_outgoing (t_config t)) -> In i (c_voters c) \/ In i (c_learners c)).
Proof.
  unfold changer_leave_joint. intros H.
  destruct (check_and_return (cfg_clone (t_config t)) (t_progress t)) as [[c0 p0]|] eqn:E0; [|discriminate].
  apply check_and_return_ok in E0. destruct E0 as (-> & -> & I0).
  destruct (joint _) eqn:J; [|discriminate].
  apply check_and_return_ok in H. destruct H as (-> & -> & I2).
  split; [intros E; apply (joint_false (cfg_clone (t_config t))) in E; congruence|]. split; [exact I2|].
  cbn. repeat (split; [reflexivity|]). intros i AM. apply fold_drop_amem in AM. destruct AM as [AM CD].
  rewrite (fold_mark_amem (fun pr => pr_with_is_learner pr true)) in AM. split; [exact AM|].
  intros O. specialize (CD O). apply andb_false_iff in CD. destruct CD as [CD|CD]; apply negb_false_iff, smem_In in CD; auto.
Qed.

(* Every accepted Simple / EnterJoint / LeaveJoint change yields a configuration that
   satisfies the invariants and keeps an incoming voter; Simple changes the incoming voter
   set by at most one element. *)
Theorem changer_simple_ok t li ccs c p :
  changer_simple t li ccs = inl (c, p) ->
  cfg_wf c p /\ c_voters c <> [] /\ symdiff (c_voters (t_config t)) (c_voters c) <= 1 /\
  cfg_wf (cfg_clone (t_config t)) (t_progress t).
Proof.
  intros H. apply changer_simple_inv in H. destruct H as (I0 & _ & _ & V & _ & SD & I2).
  auto using check_invariants_sound.
Qed.

Theorem changer_enter_joint_ok t li al ccs c p :
  changer_enter_joint t li al ccs = inl (c, p) ->
  cfg_wf c p /\ c_voters c <> [] /\ c_outgoing c = c_voters (t_config t) /\ c_outgoing c <> [] /\
  c_auto_leave c = al.
Proof.
  intros H. apply changer_enter_joint_inv in H. destruct H as (_ & _ & NV & c2 & _ & V & O & -> & I2).
  cbn. rewrite O. auto using check_invariants_sound.
Qed.

Theorem changer_leave_joint_ok t c p :
  changer_leave_joint t = inl (c, p) ->
  cfg_wf c p /\ c_voters c = c_voters (t_config t) /\ c_outgoing c = [] /\ c_learners_next c = [] /\
  c_auto_leave c = false /\ c_outgoing (t_config t) <> [].
Proof.
  intros H. apply changer_leave_joint_inv in H. destruct H as (J & I2 & V & O & LN & A & _).
  auto 6 using check_invariants_sound.
Qed.

Lemma chain_simple_ok li : forall ccs t t',
  chain_simple t li ccs = inl t' -> ccs <> [] ->
  cfg_wf (t_config t') (t_progress t') /\ c_voters (t_config t') <> [] /\ c_outgoing (t_config t') = [].
Proof.
  induction ccs as [|cc rest IH]; intros t t' H NE; [congruence|].
  cbn [chain_simple] in H.
  destruct (changer_simple t li [cc]) as [[c p]|e] eqn:E; [|discriminate].
  destruct rest as [|cc2 rest2].
  - cbn in H. inversion H; subst. cbn. apply changer_simple_inv in E. destruct E as (_ & _ & _ & V & O & _ & I2).
    auto using check_invariants_sound.
  - eapply IH; [exact H|discriminate].
Qed.

Lemma cc_restore_inv t li cs c p :
  cc_restore t li cs = inl (c, p) ->
  (cs_voters_outgoing cs = [] /\
   exists t', chain_simple t li (snd (to_cc_single cs)) = inl t' /\ c = t_config t' /\ p = t_progress t') \/
  (cs_voters_outgoing cs <> [] /\
   exists t', chain_simple t li (fst (to_cc_single cs)) = inl t' /\
              changer_enter_joint t' li (cs_auto_leave cs) (snd (to_cc_single cs)) = inl (c, p)).
Proof.
  unfold cc_restore, to_cc_single. cbn [fst snd]. intros H.
  destruct (cs_voters_outgoing cs) as [|o os]; cbn [map] in H; [left|right];
    (split; [discriminate || reflexivity|]);
    destruct (chain_simple t li _) as [t'|e] eqn:EC; try discriminate; exists t'.
  - inversion H. auto.
  - auto.
Qed.

(* confchange.Restore: whatever it accepts is a well-formed configuration with a voter, joint
   exactly when the ConfState names outgoing voters *)
Theorem restore_ok t li cs c p :
  cc_restore t li cs = inl (c, p) -> cs_voters cs <> [] ->
  cfg_wf c p /\ c_voters c <> [] /\
  (cs_voters_outgoing cs <> [] -> c_outgoing c <> [] /\ c_auto_leave c = cs_auto_leave cs) /\
  (cs_voters_outgoing cs = [] -> c_outgoing c = [] /\ c_learners_next c = [] /\ c_auto_leave c = false).
Proof.
  intros H NV. destruct (cc_restore_inv _ _ _ _ _ H) as [(NO & t' & EC & -> & ->)|(NO & t' & _ & EJ)].
  - apply chain_simple_ok in EC.
    + destruct EC as (W & V & NJ). split; [exact W|]. split; [exact V|]. split; [congruence|].
      intros _. split; [exact NJ|]. destruct W as (_ & _ & _ & W4). apply W4 in NJ. tauto.
    + unfold to_cc_single. rewrite NO. cbn. destruct (cs_voters cs); [congruence|discriminate].
  - apply changer_enter_joint_ok in EJ. destruct EJ as (W & V & O & ON & AL). tauto.
Qed.

(* non-vacuity: a joint ConfState with a demoted voter restores from the empty tracker, the
   result satisfies checkInvariants and serializes back to an equivalent ConfState *)
Example restore_ok_somewhere :
  match cc_restore (make_tracker 4 0) 10 (mkConfState [1;2;3] [4] [1;2;5] [5] true) with
  | inl (c, p) => confstate_equiv (conf_state c) (mkConfState [1;2;3] [4] [1;2;5] [5] true) && check_invariants c p
  | inr _ => false
  end = true.
Proof. vm_compute. reflexivity. Qed.

Lemma cfg_clone_id c : c_auto_leave c = false -> cfg_clone c = c.
Proof. destruct c. cbn. intros ->. reflexivity. Qed.

(* restore.go's chain of one-change Simple calls is one run of the loop.  Each call starts from
   a Clone, which drops AutoLeave: hence the hypothesis on it. *)
Lemma chain_simple_run li : forall ccs t t',
  c_auto_leave (t_config t) = false -> chain_simple t li ccs = inl t' ->
  (t_config t', t_progress t') =
  cc_run (t_max_inflight t) (t_max_inflight_bytes t) li (t_config t, t_progress t) ccs.
Proof.
  induction ccs as [|cc ccs IH]; intros t t' A H; cbn [chain_simple cc_run] in *.
  - inversion H. reflexivity.
  - destruct (changer_simple t li [cc]) as [[c p]|] eqn:E; [|discriminate].
    apply changer_simple_inv in E. destruct E as (_ & _ & R & _).
    rewrite (cfg_clone_id _ A) in R. cbn [cc_run] in R.
    destruct (cc_step_at (t_max_inflight t) (t_max_inflight_bytes t) li (t_config t, t_progress t) cc) as (_ & A1 & _).
    rewrite <- R in *. cbn [fst] in A1.
    apply (IH (t_with_config_progress t c p)); [cbn; congruence|exact H].
Qed.

Lemma stand_enter_joint c p x :
  stand (cfg_with_outgoing (cfg_clone c) (c_voters c)) p x =
  mkSt (st_voter (stand c p x)) (st_voter (stand c p x)) (st_learner (stand c p x)) (st_next (stand c p x)) (st_mark (stand c p x)).
Proof. reflexivity. Qed.

(* The standing of every id after an accepted Restore into a fresh tracker, from the four
   lists of the ConfState ([named]: listed and not 0).  toConfChangeSingle makes the outgoing
   voters voters first, enters the joint configuration (which copies them to the outgoing
   half), removes them, and then adds Voters, Learners and LearnersNext in this order. *)
Theorem restore_fresh_at mi mb li cs c p :
  cc_restore (make_tracker mi mb) li cs = inl (c, p) ->
  forall x, stand c p x =
    let m1 := if named (cs_voters_outgoing cs) x then mkSt false true false false (Some false)
              else mkSt false false false false None in
    let m2 := if named (cs_voters cs) x then voter_at m1 else m1 in
    let m3 := if named (cs_learners cs) x then learner_at m2 else m2 in
    if named (cs_learners_next cs) x then learner_at m3 else m3.
Proof.
  intros H.
  assert (S : exists mi' mb' s,
    (forall x, stands s x = if named (cs_voters_outgoing cs) x then mkSt true true false false (Some false)
                         else mkSt false false false false None) /\
    forall x, stand c p x = stands (cc_run mi' mb' li s (snd (to_cc_single cs))) x).
  { destruct (cc_restore_inv _ _ _ _ _ H) as [(NO & t' & EC & -> & ->)|(NO & t' & EC & EJ)];
      apply chain_simple_run in EC; try reflexivity; cbn [make_tracker t_config t_progress t_max_inflight t_max_inflight_bytes] in EC.
    - exists mi, mb, (empty_config, [] : progress_map). rewrite NO. split; [reflexivity|]. intros x. rewrite <- EC. reflexivity.
    - apply changer_enter_joint_inv in EJ. destruct EJ as (_ & _ & _ & c2 & R & _ & _ & -> & _).
      exists (t_max_inflight t'), (t_max_inflight_bytes t'),
        (cfg_with_outgoing (cfg_clone (t_config t')) (c_voters (t_config t')), t_progress t').
      split; [|intros x; rewrite <- R; reflexivity].
      intros x. unfold stands at 1. cbn [fst snd]. rewrite stand_enter_joint.
      change (stand (t_config t') (t_progress t') x) with (stands (t_config t', t_progress t') x).
      rewrite EC. unfold to_cc_single. cbn [fst]. rewrite cc_run_map by reflexivity.
      destruct (named _ x); reflexivity. }
  destruct S as (mi' & mb' & s & S1 & S2). intros x. rewrite S2. unfold to_cc_single. cbn [snd]. rewrite !cc_run_app.
  rewrite cc_run_map by (intros; apply learner_at_idem).
  rewrite cc_run_map by (intros; apply learner_at_idem).
  rewrite cc_run_map.
  2:{ intros y. rewrite cc_run_map by (intros; apply remove_at_idem). rewrite S1. destruct (named _ y); reflexivity. }
  rewrite cc_run_map by (intros; apply remove_at_idem). rewrite S1. cbn [cc_at].
  destruct (named (cs_voters_outgoing cs) x); reflexivity.
Qed.

Theorem restore_fresh mi mb li cs c p :
  cc_restore (make_tracker mi mb) li cs = inl (c, p) ->
  forall x,
    (In x (c_outgoing c) <-> In x (cs_voters_outgoing cs) /\ x <> 0) /\
    (In x (c_voters c) <->
       In x (cs_voters cs) /\ x <> 0 /\ ~ In x (cs_learners cs) /\ ~ In x (cs_learners_next cs)) /\
    (In x (c_learners c) <->
       (In x (cs_learners cs) \/ In x (cs_learners_next cs)) /\ x <> 0 /\ ~ In x (cs_voters_outgoing cs)) /\
    (In x (c_learners_next c) <->
       (In x (cs_learners cs) \/ In x (cs_learners_next cs)) /\ x <> 0 /\ In x (cs_voters_outgoing cs)).
Proof.
  intros H x. pose proof (restore_fresh_at _ _ _ _ _ _ H x) as V. unfold named, stand in V.
  rewrite <- !smem_In, <- N.eqb_neq.
  destruct (smem (cs_voters_outgoing cs) x), (smem (cs_voters cs) x), (smem (cs_learners cs) x),
    (smem (cs_learners_next cs) x), (x =? 0); cbn in V; injection V as -> -> -> -> _;
    (* the goals are closed; with the context gone [intuition] is a third quicker *)
    clear; intuition discriminate.
Qed.

Corollary restore_outgoing_fresh mi mb li cs c p :
  cc_restore (make_tracker mi mb) li cs = inl (c, p) -> cs_voters_outgoing cs <> [] ->
  forall x, In x (c_outgoing c) <-> In x (cs_voters_outgoing cs) /\ x <> 0.
Proof. intros H _ x. apply (restore_fresh _ _ _ _ _ _ H x). Qed.

(* Restore of a non-joint ConfState into a fresh tracker: the voter set of the result is the
   ConfState's Voters (id 0 skipped), provided no voter is also listed as a learner *)
Theorem restore_voters_fresh mi mb li cs c p :
  cc_restore (make_tracker mi mb) li cs = inl (c, p) -> cs_voters_outgoing cs = [] ->
  (forall x, In x (cs_voters cs) -> ~ In x (cs_learners cs) /\ ~ In x (cs_learners_next cs)) ->
  forall x, In x (c_voters c) <-> In x (cs_voters cs) /\ x <> 0.
Proof.
  intros H _ D x. destruct (restore_fresh _ _ _ _ _ _ H x) as (_ & V & _). specialize (D x). tauto.
Qed.

Example restore_voters_fresh_somewhere :
  match cc_restore (make_tracker 4 0) 10 (mkConfState [1;2;3] [4] [] [] false) with
  | inl (c, p) => list_eqb N.eqb (c_voters c) [1;2;3] && list_eqb N.eqb (c_learners c) [4]
  | inr _ => false
  end = true.
Proof. vm_compute. reflexivity. Qed.

(* Restore of a joint ConfState into a fresh tracker: the incoming voter set of the result is
   the ConfState's Voters (id 0 skipped), provided no voter is also listed as a learner *)
Theorem restore_voters_joint_fresh mi mb li cs c p :
  cc_restore (make_tracker mi mb) li cs = inl (c, p) -> cs_voters_outgoing cs <> [] ->
  (forall x, In x (cs_voters cs) -> ~ In x (cs_learners cs) /\ ~ In x (cs_learners_next cs)) ->
  forall x, In x (c_voters c) <-> In x (cs_voters cs) /\ x <> 0.
Proof.
  intros H _ D x. destruct (restore_fresh _ _ _ _ _ _ H x) as (_ & V & _). specialize (D x). tauto.
Qed.

Example restore_voters_joint_somewhere :
  match cc_restore (make_tracker 4 0) 10 (mkConfState [1;2;3] [4] [1;2;5] [5] true) with
  | inl (c, p) => list_eqb N.eqb (c_voters c) [1;2;3] && list_eqb N.eqb (c_outgoing c) [1;2;5]
  | inr _ => false
  end = true.
Proof. vm_compute. reflexivity. Qed.

(* Restore of a non-joint ConfState into a fresh tracker: the learner set of the result is
   the ConfState's Learners together with its LearnersNext (id 0 skipped) *)
Theorem restore_learners_fresh mi mb li cs c p :
  cc_restore (make_tracker mi mb) li cs = inl (c, p) -> cs_voters_outgoing cs = [] ->
  forall x, In x (c_learners c) <-> (In x (cs_learners cs) \/ In x (cs_learners_next cs)) /\ x <> 0.
Proof.
  intros H NO x. destruct (restore_fresh _ _ _ _ _ _ H x) as (_ & _ & L & _). rewrite NO in L. cbn in L. tauto.
Qed.

(* Restore of a joint ConfState into a fresh tracker: the ids named as Learners or
   LearnersNext become learners when they are not outgoing voters and staged learners when
   they are (id 0 skipped) *)
Theorem restore_learners_joint_fresh mi mb li cs c p :
  cc_restore (make_tracker mi mb) li cs = inl (c, p) -> cs_voters_outgoing cs <> [] ->
  forall x,
    (In x (c_learners c) <->
       (In x (cs_learners cs) \/ In x (cs_learners_next cs)) /\ x <> 0 /\ ~ In x (cs_voters_outgoing cs)) /\
    (In x (c_learners_next c) <->
       (In x (cs_learners cs) \/ In x (cs_learners_next cs)) /\ x <> 0 /\ In x (cs_voters_outgoing cs)).
Proof. intros H _ x. apply (restore_fresh _ _ _ _ _ _ H x). Qed.

Example restore_learners_joint_somewhere :
  match cc_restore (make_tracker 4 0) 10 (mkConfState [1;2;3] [4] [1;2;5] [5] true) with
  | inl (c, p) => list_eqb N.eqb (c_learners c) [4] && list_eqb N.eqb (c_learners_next c) [5]
  | inr _ => false
  end = true.
Proof. vm_compute. reflexivity. Qed.

(* only members have a progress record: the "non-members none" clause of C13, which
   checkInvariants itself does not test *)

Definition pinv (c : config) (p : progress_map) : Prop :=
  forall id, amem p id = true ->
    In id (c_voters c) \/ In id (c_outgoing c) \/ In id (c_learners c) \/ In id (c_learners_next c).

Definition member_if_tracked (m : standing) : bool :=
  match st_mark m with Some _ => st_voter m || st_outgoing m || st_learner m || st_next m | None => true end.

Lemma pinv_at c p : pinv c p <-> forall x, member_if_tracked (stand c p x) = true.
Proof.
  unfold pinv, amem, member_if_tracked, stand. cbn.
  split; intros H x; specialize (H x); destruct (alookup p x); cbn in *; rewrite ?orb_true_iff, ?smem_In in *;
    tauto || discriminate.
Qed.

Lemma cc_run_pinv mi mb li s ccs s' :
  s' = cc_run mi mb li s ccs -> pinv (fst s) (snd s) -> pinv (fst s') (snd s').
Proof.
  intros ->. rewrite !pinv_at. apply cc_run_good.
  intros ty m. destruct ty, m as [[] [] [] [] [[]|]]; cbn; auto.
Qed.

Theorem changer_simple_pinv t li ccs c p :
  pinv (t_config t) (t_progress t) -> changer_simple t li ccs = inl (c, p) -> pinv c p.
Proof.
  intros PI H. apply changer_simple_inv in H. destruct H as (_ & _ & R & _).
  exact (cc_run_pinv _ _ _ _ _ _ R PI).
Qed.

Theorem changer_enter_joint_pinv t li al ccs c p :
  pinv (t_config t) (t_progress t) -> changer_enter_joint t li al ccs = inl (c, p) -> pinv c p.
Proof.
  intros PI H. apply changer_enter_joint_inv in H. destruct H as (_ & J & _ & c2 & R & _ & _ & -> & _).
  assert (P1 : pinv (cfg_with_outgoing (cfg_clone (t_config t)) (c_voters (t_config t))) (t_progress t)).
  { intros i AM. apply PI in AM. rewrite J in AM. cbn in *. tauto. }
  exact (cc_run_pinv _ _ _ _ _ _ R P1).
Qed.

Theorem changer_leave_joint_pinv t c p :
  pinv (t_config t) (t_progress t) -> changer_leave_joint t = inl (c, p) -> pinv c p.
Proof.
  intros PI H i AM. apply changer_leave_joint_inv in H. destruct H as (_ & _ & -> & _ & _ & _ & -> & P).
  apply P in AM. destruct AM as [AM O]. apply PI in AM. rewrite fold_sinsert_In in *. tauto.
Qed.

(* non-vacuity and strength: the empty tracker satisfies pinv, so every configuration reached
   from it by accepted changes does *)
Lemma pinv_fresh mi mb : pinv (t_config (make_tracker mi mb)) (t_progress (make_tracker mi mb)).
Proof. unfold pinv. cbn. intros id H. discriminate. Qed.
