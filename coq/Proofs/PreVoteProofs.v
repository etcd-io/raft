(* PreVoteProofs.v: the node-local mechanisms behind C17 (PreVote / CheckQuorum). *)
From Coq Require Import List NArith Bool Lia.
From RaftV Require Import Base Types Quorum Progress Tracker Storage Log Raft RawNode Tactics
     RaftSteps RaftMono.
Import ListNotations.
Open Scope N_scope.

Definition same_tv (r r' : raft) : Prop := r_term r' = r_term r /\ r_vote r' = r_vote r.

Lemma send_tv r m r' : send r m = Ok r' -> same_tv r r'.
Proof. intros H. destruct (send_keeps _ _ _ H) as [E|E]; rewrite E; split; reflexivity. Qed.

Lemma bytes_eqb_eq a : forall b, bytes_eqb a b = true -> a = b.
Proof.
  unfold bytes_eqb. induction a as [|x a IH]; intros [|y b] B; cbn in B; try discriminate; [reflexivity|].
  apply andb_true_iff in B. destruct B as [B1 B2]. apply N.eqb_eq in B1. subst. f_equal. apply IH. exact B2.
Qed.

Section WithStorage.
Variable st : memstorage.

(* Receiving a pre-vote request never changes the receiver's term or vote, whatever the
   request says and whatever state the receiver is in. *)
Theorem prevote_request_no_effect r m r' e :
  m_type m = MsgPreVote -> step st r m = Ok (r', e) -> same_tv r r'.
Proof.
  intros T H. unfold step, step_gen in H.
  destruct (step_preamble st (step_inner st) r m) as [[r1 c]|] eqn:EP; cbn [bind] in H; [|discriminate].
  assert (P : same_tv r r1).
  { unfold step_preamble in EP. rewrite T in EP.
    repeat match type of EP with
    | (if ?c then _ else _) = _ => destruct c
    end; cbn in EP;
    repeat match type of EP with
    | bind ?x _ = _ => let E := fresh "E" in destruct x eqn:E; cbn [bind] in EP; [|discriminate]
    end; inversion EP; subst;
    try (split; reflexivity);
    match goal with E : send _ _ = Ok _ |- _ => apply send_tv in E; exact E end. }
  destruct (negb c); [inversion H; subst; exact P|].
  unfold step_dispatch in H. rewrite T in H.
  destruct (l_is_up_to_date st (r_log r1) (m_logterm m) (m_index m)) as [u|]; cbn [bind] in H; [|discriminate].
  destruct P as [PT PV].
  destruct (_ && u);
    match type of H with bind ?x _ = _ => destruct x eqn:E; cbn [bind] in H; [|discriminate] end;
    inversion H; subst; apply send_tv in E; destruct E as [ET EV]; split; congruence.
Qed.

Theorem become_pre_candidate_tv r r' : become_pre_candidate r = Ok r' -> same_tv r r'.
Proof.
  intros H. rewrite (become_pre_candidate_eq _ _ H). split; reflexivity.
Qed.

(* With CheckQuorum, a node that has a leader and is inside its election timeout ignores
   every higher-term vote or pre-vote request that is not a forced (transfer) one: the state
   is unchanged and nothing is sent. *)
Theorem in_lease_vote_ignored r m r' e :
  (m_type m = MsgVote \/ m_type m = MsgPreVote) ->
  r_check_quorum r = true -> r_lead r <> NoneId -> r_election_elapsed r < r_election_timeout r ->
  r_term r < m_term m -> m_context m <> campaign_transfer_ctx ->
  step st r m = Ok (r', e) -> r' = r /\ e = ENone.
Proof.
  intros T CQ L EE TT F H. unfold step, step_gen, step_preamble in H.
  assert (Z : N.eqb (m_term m) 0 = false) by (apply N.eqb_neq; lia). rewrite Z in H.
  assert (Z2 : N.ltb (r_term r) (m_term m) = true) by (apply N.ltb_lt; lia). rewrite Z2 in H.
  assert (Z3 : bytes_eqb (m_context m) campaign_transfer_ctx = false).
  { destruct (bytes_eqb (m_context m) campaign_transfer_ctx) eqn:B; [|reflexivity]. exfalso. apply F.
    apply bytes_eqb_eq. exact B. }
  rewrite Z3, CQ in H.
  assert (Z4 : negb (N.eqb (r_lead r) NoneId) = true) by (apply negb_true_iff, N.eqb_neq; exact L).
  assert (Z5 : N.ltb (r_election_elapsed r) (r_election_timeout r) = true) by (apply N.ltb_lt; exact EE).
  rewrite Z4, Z5 in H.
  destruct T as [T|T]; rewrite T in H; cbn in H; inversion H; auto.
Qed.

(* With PreVote, neither an election timeout nor Campaign() raises the term: MsgHup only
   starts a pre-candidacy. *)
Theorem prevote_hup_keeps_term r m r' e :
  m_type m = MsgHup -> m_term m = 0 -> r_pre_vote r = true ->
  step st r m = Ok (r', e) -> same_tv r r'.
Proof.
  intros T T0 PV H. rewrite (step_local _ _ _ T0) in H.
  unfold step_dispatch in H. rewrite T, PV in H.
  destruct (hup st r CampaignPreElection) as [r1|] eqn:EH; cbn [bind] in H; [|discriminate].
  inversion H; subst; clear H.
  unfold hup in EH.
  destruct (state_type_eqb (r_state r) StateLeader); [inversion EH; split; reflexivity|].
  destruct (negb (promotable r)); [inversion EH; split; reflexivity|].
  destruct (has_unapplied_conf_changes st r) as [u|]; cbn [bind] in EH; [|discriminate].
  destruct u; [inversion EH; split; reflexivity|].
  unfold campaign in EH.
  destruct (become_pre_candidate r) as [r2|] eqn:EB; cbn [bind] in EH; [|discriminate].
  destruct (l_last_entry_id st (r_log r2)); cbn [bind] in EH; [|discriminate].
  apply become_pre_candidate_tv in EB.
  apply campaign_send_emits, emits_keeps in EH; [|lia].
  destruct EH as (_ & T1 & V1 & _). destruct EB as [T2 V2]. split; congruence.
Qed.

(* A pre-candidate becomes a real candidate (raising its term) only in the VoteWon branch of
   a MsgPreVoteResp that is a rejection or a grant for exactly Term+1: the tally over the
   joint configuration, with the semantics of C12. *)
Theorem precandidate_term_raise r m r' e :
  r_state r = StatePreCandidate -> step_candidate st r m = Ok (r', e) -> r_term r' <> r_term r ->
  from_leader (m_type m) = true \/
  (m_type m = MsgPreVoteResp /\ (m_reject m = true \/ m_term m = r_term r + 1) /\
   joint_vote (c_voters (t_config (r_trk r))) (c_outgoing (t_config (r_trk r)))
              (t_votes (record_vote (r_trk r) (m_from m) (negb (m_reject m)))) <> VotePending).
Proof.
  intros S H NE. unfold step_candidate in H. rewrite S in H. cbn [state_type_eqb] in H.
  destruct (m_type m) eqn:T; try (left; reflexivity);
    try (inversion H; subst; contradiction NE; reflexivity).
  all: cbn [msg_type_eqb msg_type_num N.eqb Pos.eqb] in H.
  all: try (inversion H; subst; contradiction NE; reflexivity).
  right. split; [reflexivity|]. cbn [andb] in H.
  destruct (negb (m_reject m) && negb (N.eqb (m_term m) (r_term r + 1))) eqn:G.
  { inversion H; subst. contradiction NE. reflexivity. }
  split.
  { apply andb_false_iff in G. destruct G as [G|G]; [left; apply negb_false_iff; exact G|right].
    apply negb_false_iff, N.eqb_eq in G. exact G. }
  rewrite poll_eq in H. intros P. rewrite P in H. inversion H; subst. apply NE. reflexivity.
Qed.

(* a grant that answers an earlier pre-campaign is ignored altogether *)
Theorem stale_prevote_grant_ignored r m r' e :
  r_state r = StatePreCandidate -> m_type m = MsgPreVoteResp -> m_reject m = false ->
  m_term m <> r_term r + 1 -> step_candidate st r m = Ok (r', e) -> r' = r.
Proof.
  intros S T RJ NT H. unfold step_candidate in H. rewrite S, T, RJ in H.
  cbn [state_type_eqb msg_type_eqb msg_type_num N.eqb Pos.eqb andb negb] in H.
  apply N.eqb_neq in NT. rewrite NT in H. cbn in H. inversion H. reflexivity.
Qed.

End WithStorage.
