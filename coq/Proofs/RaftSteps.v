(* RaftSteps.v: every function of Model/Raft.v as a finite sequence of primitive updates.
   [emit r r'] lists what the sending functions do to the state, [prim st m r r'] what stepping the
   message [m] can do, each update with the guard under which the code performs it.  A relation
   on states that is reflexive, transitive and contains the primitive updates therefore contains
   every function: the frames over raft.go (hard state, queues, cursors, terms of emitted
   messages, roles, inflight windows) are instances. *)
From Coq Require Import List NArith Bool Lia Relations.
From RaftV Require Import Base Types Quorum Progress Tracker Storage Log Raft Tactics.
Import ListNotations.
Open Scope N_scope.

(* the methods of tracker.Progress that raft.go calls *)
Inductive pr_op : progress -> progress -> Prop :=
| op_probe p : pr_op p (pr_become_probe p)
| op_replicate p : pr_op p (pr_become_replicate p)
| op_snapshot p i : pr_op p (pr_become_snapshot p i)
| op_sent p n b p' : pr_sent_entries p n b = Ok p' -> pr_op p p'
| op_sent_commit p c : pr_op p (pr_set_sent_commit p c)
| op_update p n p' u : pr_maybe_update p n = (p', u) -> pr_op p p'
| op_decr p rej hint p' d : pr_maybe_decr_to p rej hint = (p', d) -> pr_op p p'
| op_paused p b : pr_op p (pr_with_paused p b)
| op_pending_snapshot p x : pr_op p (pr_with_pending_snapshot p x)
| op_free p i : pr_op p (pr_with_inflights p (infl_free_le (pr_inflights p) i)).

Definition pr_ops : progress -> progress -> Prop := clos_refl_trans progress pr_op.

Lemma ops_refl a : pr_ops a a.
Proof. apply rt_refl. Qed.
Lemma ops_step a b c : pr_op b c -> pr_ops a b -> pr_ops a c.
Proof. intros O H. eapply rt_trans; [exact H|apply rt_step; exact O]. Qed.

Lemma pr_ops_recent_active p p' : pr_ops p p' -> pr_recent_active p' = pr_recent_active p.
Proof.
  induction 1 as [p p' O| |]; [|reflexivity|congruence].
  destruct O; try reflexivity.
  - unfold pr_become_probe. destruct (pr_state_eqb _ _); reflexivity.
  - unfold pr_sent_entries in H. destruct (pr_state_ p); [| |discriminate].
    + destruct (0 <? n); inversion H; reflexivity.
    + destruct (0 <? n); [destruct (infl_add _ _ _); [|discriminate]|]; inversion H; reflexivity.
  - unfold pr_maybe_update in H. destruct (_ <=? _); inversion H; reflexivity.
  - unfold pr_maybe_decr_to in H. destruct (pr_state_eqb _ _); [destruct (_ <=? _)|destruct (negb _)];
      inversion H; reflexivity.
Qed.

(* fields that only drive local bookkeeping: no frame reads them *)
Definition same_core (r r' : raft) : Prop :=
  r' = mkRaft (r_id r) (r_term r) (r_vote r) (r_read_states r') (r_log r) (r_max_msg_size r)
         (r_max_uncommitted_size r) (r_trk r) (r_state r) (r_is_learner r') (r_msgs r)
         (r_msgs_after_append r) (r_lead r) (r_lead_transferee r') (r_pending_conf_index r')
         (r_disable_cc_validation r) (r_uncommitted_size r') (r_read_only r) (r_election_elapsed r)
         (r_heartbeat_elapsed r') (r_check_quorum r) (r_pre_vote r) (r_heartbeat_timeout r)
         (r_election_timeout r) (r_randomized_election_timeout r') (r_disable_proposal_forwarding r)
         (r_step_down_on_removal r) (r_pending_read_index r') (r_draws r').

Ltac same_core_done := first [reflexivity | match goal with |- same_core ?r _ => destruct r end; reflexivity].

(* unfold the setters of the raft record without copying their argument *)
Ltac raft_cbv_in H := cbv beta iota zeta delta [
  r_id r_term r_vote r_read_states r_log r_max_msg_size r_max_uncommitted_size r_trk r_state
  r_is_learner r_msgs r_msgs_after_append r_lead r_lead_transferee r_pending_conf_index
  r_disable_cc_validation r_uncommitted_size r_read_only r_election_elapsed r_heartbeat_elapsed
  r_check_quorum r_pre_vote r_heartbeat_timeout r_election_timeout r_randomized_election_timeout
  r_disable_proposal_forwarding r_step_down_on_removal r_pending_read_index r_draws
  set_r_term set_r_vote set_r_read_states set_r_log set_r_trk set_r_state set_r_is_learner
  set_r_msgs set_r_msgs_after_append set_r_lead set_r_lead_transferee set_r_pending_conf_index
  set_r_uncommitted_size set_r_read_only set_r_election_elapsed set_r_heartbeat_elapsed
  set_r_randomized_election_timeout set_r_pending_read_index set_r_draws bind] in H.

(* the Progress map after reset: Match 0 (the own entry: the last index), Next after the log's end,
   StateProbe, an empty window; only IsLearner is kept *)
Definition reset_progress (st : memstorage) (r : raft) : progress_map :=
  map (fun kv => (fst kv, mkPr (if N.eqb (fst kv) (r_id r) then last_index st r else 0) (last_index st r + 1)
                               0 StateProbe 0 false false
                               (new_inflights (t_max_inflight (r_trk r)) (t_max_inflight_bytes (r_trk r)))
                               (pr_is_learner (snd kv))))
      (t_progress (r_trk r)).

(* [cbn] on the nested setters of [reset] copies the state once per field and level; a state that
   is a constructor and call-by-value unfolding avoid that. *)
Lemma reset_eq st r term r' : reset st r term = Ok r' ->
  exists d ds, r_draws r = d :: ds /\
  r' = mkRaft (r_id r) term (if N.eqb (r_term r) term then r_vote r else NoneId) (r_read_states r) (r_log r)
         (r_max_msg_size r) (r_max_uncommitted_size r)
         (t_with_progress (reset_votes (r_trk r)) (reset_progress st r))
         (r_state r) (r_is_learner r) (r_msgs r) (r_msgs_after_append r) NoneId NoneId 0
         (r_disable_cc_validation r) 0 (new_readonly (ro_option (r_read_only r))) 0 0
         (r_check_quorum r) (r_pre_vote r) (r_heartbeat_timeout r) (r_election_timeout r)
         (r_election_timeout r + d) (r_disable_proposal_forwarding r) (r_step_down_on_removal r)
         (r_pending_read_index r) ds.
Proof.
  destruct r. unfold reset, reset_randomized, reset_progress, last_index.
  cbn [Raft.r_term Raft.r_draws Raft.r_id Raft.r_vote]. intros H.
  destruct (r_term =? term) eqn:E; cbn [negb] in H; raft_cbv_in H;
    (destruct r_draws as [|d ds]; [discriminate H|]);
    inversion H; exists d, ds; (split; [reflexivity|]).
  - apply N.eqb_eq in E. subst. reflexivity.
  - reflexivity.
Qed.

(* the role changes by the state they build: two go through reset, becomePreCandidate does not *)
Lemma become_follower_eq st r term lead r' :
  become_follower st r term lead = Ok r' ->
  exists r1, reset st r term = Ok r1 /\ r' = set_r_state (set_r_lead r1 lead) StateFollower.
Proof.
  unfold become_follower. intros H. apply bind_ok in H. destruct H as (r1 & E & H). injection H as <-. eauto.
Qed.

Lemma become_candidate_eq st r r' :
  become_candidate st r = Ok r' ->
  exists r1, reset st r (r_term r + 1) = Ok r1 /\ r' = set_r_state (set_r_vote r1 (r_id r1)) StateCandidate.
Proof.
  unfold become_candidate. intros H. destruct (state_type_eqb _ _); [discriminate|].
  apply bind_ok in H. destruct H as (r1 & E & H). injection H as <-. eauto.
Qed.

Lemma become_pre_candidate_eq r r' :
  become_pre_candidate r = Ok r' ->
  r' = set_r_state (set_r_lead (set_r_trk r (reset_votes (r_trk r))) NoneId) StatePreCandidate.
Proof.
  unfold become_pre_candidate. intros H. destruct (state_type_eqb _ _); [discriminate|]. injection H as <-. reflexivity.
Qed.

(* appliedTo moves the cursor; in an auto-leave joint configuration whose changes are all applied a
   leader goes on to step the proposal that leaves it *)
Lemma applied_to_eq step_rec r i s r' :
  applied_to step_rec r i s = Ok r' ->
  exists l, l_applied_to (r_log r) (N.max i (l_applied (r_log r))) s = Ok l /\
    if c_auto_leave (t_config (r_trk r)) && (r_pending_conf_index r <=? N.max i (l_applied (r_log r))) &&
       state_type_eqb (r_state r) StateLeader
    then exists x, step_rec (set_r_log r l) leave_joint_prop = Ok x /\ r' = fst x
    else r' = set_r_log r l.
Proof.
  unfold applied_to. intros H. apply bind_ok in H. destruct H as (l & EL & H). exists l. split; [exact EL|].
  change (c_auto_leave (t_config (r_trk (set_r_log r l)))) with (c_auto_leave (t_config (r_trk r))) in H.
  change (r_pending_conf_index (set_r_log r l)) with (r_pending_conf_index r) in H.
  change (r_state (set_r_log r l)) with (r_state r) in H.
  destruct (_ && _ && _); [|injection H as <-; reflexivity].
  apply bind_ok in H. destruct H as (x & EX & H). injection H as <-. eauto.
Qed.

(* what the sending functions (send, maybeSendAppend, sendHeartbeat, the broadcasts, the answers
   to read requests) do to the state *)
Inductive emit (r : raft) : raft -> Prop :=
| E_send m r' :
    send r m = Ok r' ->
    (* a message of the vote family carries the term its caller gives it *)
    (is_vote_family (m_type m) = true -> m_term m = 0 \/ r_term r <= m_term m) ->
    emit r r'
| E_progress id p p' :
    get_progress r id = Some p -> pr_ops p p' -> emit r (put_progress r id p')
| E_read_only ro :
    ro_option ro = ro_option (r_read_only r) -> emit r (set_r_read_only r ro)
| E_local r' : same_core r r' -> emit r r'.

Definition emits : raft -> raft -> Prop := clos_refl_trans raft emit.

Lemma send_keeps r m r' :
  send r m = Ok r' ->
  r' = set_r_msgs r (r_msgs r') \/ r' = set_r_msgs_after_append r (r_msgs_after_append r').
Proof.
  unfold send. intros H.
  match type of H with bind ?x _ = _ => destruct x as [m1|]; cbn [bind] in H; [|discriminate] end.
  destruct (m_type m1); try (destruct (N.eqb _ _); [discriminate|]); injection H as <-; auto.
Qed.

Lemma emit_keeps r r' :
  emit r r' ->
  r_id r' = r_id r /\ r_term r' = r_term r /\ r_vote r' = r_vote r /\ r_log r' = r_log r /\
  r_state r' = r_state r /\ r_lead r' = r_lead r.
Proof.
  destruct 1 as [m r' H _| | |r' H]; try (repeat split; reflexivity).
  - destruct (send_keeps _ _ _ H) as [E|E]; rewrite E; repeat split; reflexivity.
  - rewrite H. repeat split; reflexivity.
Qed.

Lemma emits_keeps r r' :
  emits r r' ->
  r_id r' = r_id r /\ r_term r' = r_term r /\ r_vote r' = r_vote r /\ r_log r' = r_log r /\
  r_state r' = r_state r /\ r_lead r' = r_lead r.
Proof.
  induction 1 as [r r' E| |a b c _ (A1 & A2 & A3 & A4 & A5 & A6) _ (B1 & B2 & B3 & B4 & B5 & B6)];
    [apply emit_keeps; exact E|repeat split; reflexivity|repeat split; congruence].
Qed.

(* [one]: the closure contains the relation; [chain]: compose the closure facts in the context *)
Ltac one := apply rt_step.
Ltac chain :=
  first [ eassumption | apply rt_refl | eapply rt_trans; [eassumption|chain] ].

Lemma emit_plain r m r' : send r m = Ok r' -> is_vote_family (m_type m) = false -> emits r r'.
Proof. intros H NV. one. eapply E_send; [exact H|]. rewrite NV. discriminate. Qed.

Section WithStorage.
Variable st : memstorage.

Lemma get_put_progress r id p : get_progress (put_progress r id p) id = Some p.
Proof.
  unfold get_progress, put_progress. cbn. generalize (t_progress (r_trk r)). intros l.
  induction l as [|[k v] l IH]; cbn; [rewrite N.eqb_refl; reflexivity|].
  destruct (N.eqb id k) eqn:E; cbn; [rewrite N.eqb_refl; reflexivity|].
  destruct (N.ltb id k); cbn; [rewrite N.eqb_refl; reflexivity|]. rewrite E. exact IH.
Qed.

Lemma maybe_send_snapshot_emits r to pr r' b :
  get_progress r to = Some pr -> maybe_send_snapshot st r to pr = Ok (r', b) -> emits r r'.
Proof.
  unfold maybe_send_snapshot. intros G H. inv_ok; try apply rt_refl.
  eapply rt_trans; [one; eapply E_progress; [exact G|one; apply op_snapshot]|].
  eapply emit_plain; [eassumption|reflexivity].
Qed.

Lemma send_progress r m r' id : send r m = Ok r' -> get_progress r' id = get_progress r id.
Proof. intros H. destruct (send_keeps _ _ _ H) as [E|E]; rewrite E; reflexivity. Qed.

Lemma maybe_send_append_emits r to sie r' b :
  maybe_send_append st r to sie = Ok (r', b) -> emits r r'.
Proof.
  unfold maybe_send_append. intros H.
  destruct (get_progress r to) as [pr|] eqn:G; [|discriminate].
  inv_ok; try apply rt_refl; try (eapply maybe_send_snapshot_emits; eassumption).
  all: eapply rt_trans; [eapply emit_plain; [eassumption|reflexivity]|].
  all: one; eapply E_progress; [erewrite send_progress; eassumption|].
  all: eapply rt_trans; one; [eapply op_sent; eassumption|apply op_sent_commit].
Qed.

Lemma send_append_emits r to r' : send_append st r to = Ok r' -> emits r r'.
Proof.
  unfold send_append. intros H. inv_ok.
  match goal with E : maybe_send_append _ _ _ _ = Ok ?x |- _ => destruct x end.
  eapply maybe_send_append_emits; eassumption.
Qed.

Lemma send_heartbeat_emits r to ctx r' : send_heartbeat r to ctx = Ok r' -> emits r r'.
Proof.
  unfold send_heartbeat. intros H.
  destruct (get_progress r to) as [pr|] eqn:G; [|discriminate]. inv_ok.
  eapply rt_trans; [eapply emit_plain; [eassumption|reflexivity]|].
  one. eapply E_progress; [erewrite send_progress; eassumption|]. one. apply op_sent_commit.
Qed.

Lemma visit_others_emits (f : raft -> N -> res raft) :
  (forall r id r', f r id = Ok r' -> emits r r') ->
  forall ids r r', visit_others f r ids = Ok r' -> emits r r'.
Proof.
  intros Hf ids. induction ids as [|id ids IH]; intros r r' H; cbn in H.
  - inv_ok. apply rt_refl.
  - destruct (N.eqb id (r_id r)); [apply IH; exact H|].
    inv_ok. eapply rt_trans; [eapply Hf; eassumption|apply IH; assumption].
Qed.

Lemma bcast_append_emits r r' : bcast_append st r = Ok r' -> emits r r'.
Proof. apply visit_others_emits. exact send_append_emits. Qed.

Lemma bcast_heartbeat_emits r r' : bcast_heartbeat r = Ok r' -> emits r r'.
Proof. apply visit_others_emits. intros; eapply send_heartbeat_emits; eassumption. Qed.

Lemma send_timeout_now_emits r to r' : send_timeout_now r to = Ok r' -> emits r r'.
Proof. unfold send_timeout_now. intros H. eapply emit_plain; [exact H|reflexivity]. Qed.

Lemma send_append_loop_emits fuel : forall r to r', send_append_loop st fuel r to = Ok r' -> emits r r'.
Proof.
  induction fuel as [|f IH]; intros r to r' H; cbn in H; inv_ok;
    match goal with E : maybe_send_append _ _ _ _ = Ok ?x |- _ => destruct x; apply maybe_send_append_emits in E end.
  - eapply rt_trans; [eassumption|eapply IH; eassumption].
  - assumption.
Qed.

Lemma visit_maybe_send_emits ids : forall r r', visit_maybe_send st r ids = Ok r' -> emits r r'.
Proof.
  induction ids as [|id ids IH]; intros r r' H; cbn in H.
  - inv_ok. apply rt_refl.
  - destruct (N.eqb id (r_id r)); [apply IH; exact H|]. inv_ok.
    match goal with E : maybe_send_append _ _ _ _ = Ok ?x |- _ => destruct x; apply maybe_send_append_emits in E end.
    eapply rt_trans; [eassumption|apply IH; assumption].
Qed.

Lemma local_emits r r' : same_core r r' -> emits r r'.
Proof. intros H. one. apply E_local. exact H. Qed.

(* [local] closes a goal whose update touches bookkeeping fields only; each of the sections below
   defines it for its own closure *)
Ltac local := apply local_emits; same_core_done.

Lemma respond_read_index_emits r req i r' : respond_read_index r req i = Ok r' -> emits r r'.
Proof.
  unfold respond_read_index, response_to_read_index_req. intros H.
  inv_ok; cbn [fst snd] in *; inv_ok.
  - local.
  - eapply emit_plain; [eassumption|reflexivity].
Qed.

Lemma send_msg_read_index_response_emits r m r' :
  send_msg_read_index_response r m = Ok r' -> emits r r'.
Proof.
  unfold send_msg_read_index_response. intros H.
  destruct (_ && is_singleton _); [eapply respond_read_index_emits; eassumption|].
  destruct (ro_option (r_read_only r)) eqn:O; [|eapply respond_read_index_emits; eassumption].
  inv_ok. eapply rt_trans; [|eapply bcast_heartbeat_emits; eassumption].
  one. apply E_read_only.
  match goal with E : ro_recv_ack _ _ _ = Ok _ |- _ => unfold ro_recv_ack in E end. inv_ok; reflexivity.
Qed.

Lemma send_read_index_responses_emits ms : forall r r',
  send_read_index_responses r ms = Ok r' -> emits r r'.
Proof.
  induction ms as [|m ms IH]; intros r r' H; cbn in H; inv_ok; [apply rt_refl|].
  eapply rt_trans; [eapply send_msg_read_index_response_emits; eassumption|eapply IH; eassumption].
Qed.

Lemma release_pending_read_index_emits r r' : release_pending_read_index st r = Ok r' -> emits r r'.
Proof.
  unfold release_pending_read_index. intros H.
  destruct (r_pending_read_index r) eqn:P; [inv_ok; apply rt_refl|].
  destruct (negb _); [inv_ok; apply rt_refl|].
  eapply rt_trans; [|eapply send_read_index_responses_emits; exact H]. local.
Qed.

Lemma respond_reads_emits rss : forall r r', respond_reads r rss = Ok r' -> emits r r'.
Proof.
  induction rss as [|[req idx] rss IH]; intros r r' H; cbn in H; inv_ok; [apply rt_refl|].
  eapply rt_trans; [eapply respond_read_index_emits; eassumption|eapply IH; eassumption].
Qed.

Lemma campaign_send_emits ids : forall r vm term lt li ctx r',
  r_term r <= term -> campaign_send r ids vm term lt li ctx = Ok r' -> emits r r'.
Proof.
  induction ids as [|id ids IH]; intros r vm term lt li ctx r' T H; cbn in H; [inv_ok; apply rt_refl|].
  match type of H with bind ?x _ = _ => destruct x as [a|] eqn:E; cbn [bind] in H; [|discriminate] end.
  assert (S : emits r a).
  { one. destruct (N.eqb id (r_id r)); (eapply E_send; [exact E|intros _; right; exact T]). }
  eapply rt_trans; [exact S|]. eapply IH; [|exact H].
  destruct (emits_keeps _ _ S) as (_ & T' & _). rewrite T'. exact T.
Qed.

End WithStorage.

(* recordVote touches the votes only *)
Lemma record_vote_eq t id v : record_vote t id v = t_with_votes t (t_votes (record_vote t id v)).
Proof. unfold record_vote. destruct t. destruct (alookup _ _); reflexivity. Qed.

Lemma record_vote_config t id v : t_config (record_vote t id v) = t_config t.
Proof. rewrite record_vote_eq. reflexivity. Qed.

Lemma poll_eq r id v :
  poll r id v =
  (set_r_trk r (record_vote (r_trk r) id v),
   joint_vote (c_voters (t_config (r_trk r))) (c_outgoing (t_config (r_trk r))) (t_votes (record_vote (r_trk r) id v))).
Proof. unfold poll, tally_votes. rewrite record_vote_config. reflexivity. Qed.

(* a message a leader sends is stamped with a term; a forged one with term 0 would pass the term
   check of Step as a local message *)
Definition leader_msg_has_term (m : message) : Prop :=
  match m_type m with MsgApp | MsgHeartbeat | MsgSnap => m_term m <> 0 | _ => True end.

(* the index a message of the storage threads acknowledges as applied *)
Definition ack_applied (m : message) (i : N) : Prop :=
  match m_type m with
  | MsgStorageApplyResp => option_map e_index (last_opt (m_entries m)) = Some i
  | MsgStorageAppendResp => option_map s_index (m_snapshot m) = Some i
  | _ => False
  end.

(* where switchToConfig's configuration comes from *)
Definition changer_result (t : tracker) (cfg : config) (pm : progress_map) : Prop :=
  (exists li cc, apply_conf_change t li cc = inl (cfg, pm)) \/
  (exists li cs, cc_restore t li cs = inl (cfg, pm)).

(* a log update outside appliedTo *)
Definition log_step (l l' : raftlog) : Prop :=
  l_committed l <= l_committed l' /\ l_applying l' = l_applying l /\ l_applied l' = l_applied l.

Lemma log_step_refl l : log_step l l.
Proof. unfold log_step. repeat split; lia. Qed.
Lemma log_step_trans a b c : log_step a b -> log_step b c -> log_step a c.
Proof. unfold log_step. intros (A1 & A2 & A3) (B1 & B2 & B3). repeat split; try congruence; lia. Qed.

Section Prim.
Variable st : memstorage.
Variable m : message.

(* one update of the state while [m] is stepped, with the guard under which raft.go makes it *)
Inductive prim (r : raft) : raft -> Prop :=
| P_emit r' (Em : emit r r') : prim r r'
(* the log; the apply cursors move only in appliedTo *)
| P_log l (Lg : log_step (r_log r) l) : prim r (set_r_log r l)
| P_applied i s l
    (Ap : l_applied_to (r_log r) (N.max i (l_applied (r_log r))) s = Ok l)
    (Ak : ack_applied m i \/ i = l_applied (r_log r)) : prim r (set_r_log r l)
| P_follower term lead r'
    (Bf : become_follower st r term lead = Ok r') (Tm : leader_msg_has_term m -> r_term r <= term) : prim r r'
| P_candidate r' (Bc : become_candidate st r = Ok r') : prim r r'
| P_pre_candidate r' (Bp : become_pre_candidate r = Ok r') : prim r r'
| P_leader r1
    (Nf : r_state r <> StateFollower) (Rs : reset st r (r_term r) = Ok r1) :
    prim r (set_r_state (set_r_lead r1 (r_id r1)) StateLeader)
| P_follow (Fo : r_state r = StateFollower) : prim r (set_r_lead (set_r_election_elapsed r 0) (m_from m))
| P_forget (Fo : r_state r = StateFollower) : prim r (set_r_lead r NoneId)
(* the vote, given once per term *)
| P_vote
    (Ty : m_type m = MsgVote) (Vo : r_vote r = m_from m \/ (r_vote r = NoneId /\ r_lead r = NoneId)) :
    prim r (set_r_vote (set_r_election_elapsed r 0) (m_from m))
| P_active id p p'
    (Gp : get_progress r id = Some p) (Op : pr_ops (pr_with_recent_active p true) p')
    (Wh : (id = r_id r /\ r_state r = StateLeader) \/
          (id = m_from m /\ (m_type m = MsgAppResp \/ m_type m = MsgHeartbeatResp))) :
    prim r (put_progress r id p')
| P_inactive : prim r (clear_recent_active r)
| P_votes v : prim r (set_r_trk r (t_with_votes (r_trk r) v))
| P_config cfg pm (Cr : changer_result (r_trk r) cfg pm) :
    prim r (set_r_trk r (t_with_config_progress (r_trk r) cfg pm))
| P_tracker (Fo : r_state r = StateFollower) :
    prim r (set_r_trk r (make_tracker (t_max_inflight (r_trk r)) (t_max_inflight_bytes (r_trk r))))
(* a transfer request restarts the leader's election timer *)
| P_transfer_timer (Ty : m_type m = MsgTransferLeader) : prim r (set_r_election_elapsed r 0).

End Prim.

(* the nested Step of appliedTo carries the proposal that leaves a joint configuration *)
Definition steps (st : memstorage) (m : message) : raft -> raft -> Prop :=
  clos_refl_trans raft (fun r r' => prim st m r r' \/ prim st leave_joint_prop r r').

Lemma steps_in st m (R : raft -> raft -> Prop) :
  (forall r, R r r) -> (forall a b c, R a b -> R b c -> R a c) ->
  (forall r r', prim st m r r' -> R r r') -> (forall r r', prim st leave_joint_prop r r' -> R r r') ->
  forall r r', steps st m r r' -> R r r'.
Proof.
  intros Rr Rt R1 R2 r r'. induction 1 as [a b [P|P]| |]; eauto.
Qed.

Section Walk.
Variable st : memstorage.
Variable m : message.
Notation steps := (steps st m).

Lemma prim_steps r r' : prim st m r r' -> steps r r'.
Proof. intros P. one. left. exact P. Qed.

Lemma emits_steps r r' : emits r r' -> steps r r'.
Proof.
  induction 1 as [r r' E| |]; [apply prim_steps, P_emit; exact E|apply rt_refl|eapply rt_trans; eassumption].
Qed.

Lemma local_steps r r' : same_core r r' -> steps r r'.
Proof. intros H. apply emits_steps, local_emits, H. Qed.

Ltac local := apply local_steps; same_core_done.

Lemma set_log_steps r l : log_step (r_log r) l -> steps r (set_r_log r l).
Proof. intros H. apply prim_steps, P_log, H. Qed.

Lemma l_commit_to_step l c l' : l_commit_to st l c = Ok l' -> log_step l l'.
Proof. unfold l_commit_to, log_step. intros H. inv_ok; cbn; bool_to_prop; repeat split; lia. Qed.

Lemma l_append_step l es l' : l_append st l es = Ok l' -> log_step l l'.
Proof. unfold l_append, log_step. intros H. inv_ok; cbn; repeat split; lia. Qed.

Lemma l_maybe_append_step l pi pt es c l' o : l_maybe_append st l pi pt es c = Ok (l', o) -> log_step l l'.
Proof.
  unfold l_maybe_append. intros H. inv_ok; try apply log_step_refl;
    repeat match goal with
    | E : l_commit_to _ _ _ = Ok _ |- _ => apply l_commit_to_step in E
    | E : l_append _ _ _ = Ok _ |- _ => apply l_append_step in E
    end; eauto using log_step_trans.
Qed.

Lemma l_maybe_commit_step l t i l' b : l_maybe_commit st l t i = Ok (l', b) -> log_step l l'.
Proof.
  unfold l_maybe_commit. intros H. inv_ok; [eapply l_commit_to_step; eassumption|apply log_step_refl].
Qed.

Lemma l_with_unstable_step l u : log_step l (l_with_unstable l u).
Proof. unfold log_step. cbn. repeat split; lia. Qed.

Lemma maybe_commit_steps r r' b : maybe_commit st r = Ok (r', b) -> steps r r'.
Proof.
  unfold maybe_commit. intros H. inv_ok.
  match goal with E : l_maybe_commit _ _ _ _ = Ok ?x |- _ => destruct x; apply l_maybe_commit_step in E end.
  apply set_log_steps. assumption.
Qed.

Lemma append_entry_steps r es r' b : append_entry st r es = Ok (r', b) -> steps r r'.
Proof.
  unfold append_entry, increase_uncommitted_size. intros H.
  destruct (_ && _ && _); cbn [negb] in H; [inv_ok; apply rt_refl|]. inv_ok.
  eapply rt_trans; [|apply emits_steps; eapply emit_plain; [eassumption|reflexivity]].
  eapply rt_trans; [|apply set_log_steps; eapply l_append_step; eassumption]. local.
Qed.

Lemma become_follower_steps r term lead r' :
  (leader_msg_has_term m -> r_term r <= term) -> become_follower st r term lead = Ok r' -> steps r r'.
Proof. intros G H. eapply prim_steps, P_follower; eassumption. Qed.

Lemma reset_keeps r term r' :
  reset st r term = Ok r' -> r_id r' = r_id r /\ r_state r' = r_state r /\ r_log r' = r_log r.
Proof. intros H. destruct (reset_eq _ _ _ _ H) as (d & ds & _ & E). rewrite E. auto. Qed.

Lemma become_follower_state r t l r' : become_follower st r t l = Ok r' -> r_state r' = StateFollower.
Proof.
  intros B. destruct (become_follower_eq _ _ _ _ _ B) as (a & _ & ->). reflexivity.
Qed.

Lemma become_leader_steps r r' : become_leader st r = Ok r' -> steps r r'.
Proof.
  unfold become_leader. intros H.
  destruct (state_type_eqb (r_state r) StateFollower) eqn:SF; [discriminate|].
  destruct (reset st r (r_term r)) as [r1|] eqn:ER; cbn [bind] in H; [|discriminate].
  set (r2 := set_r_state (set_r_lead r1 (r_id r1)) StateLeader) in *.
  destruct (get_progress r2 (r_id r2)) as [pr|] eqn:G; [|discriminate].
  eapply rt_trans; [apply prim_steps, P_leader; [destruct (r_state r); discriminate || discriminate SF|exact ER]|].
  fold r2. inv_ok.
  match goal with E : append_entry _ _ _ = Ok ?x |- _ => destruct x; apply append_entry_steps in E end.
  eapply rt_trans; [|eassumption].
  eapply rt_trans; [|local].
  apply prim_steps. eapply P_active; [exact G| |left; split; reflexivity].
  replace (pr_with_recent_active (pr_become_replicate pr) true)
    with (pr_become_replicate (pr_with_recent_active pr true)) by (destruct pr; reflexivity).
  one. apply op_replicate.
Qed.

Lemma campaign_steps r t r' : campaign st r t = Ok r' -> steps r r'.
Proof.
  unfold campaign. intros H.
  match type of H with bind ?x _ = _ => destruct x as [[[r1 vm] term]|] eqn:E; cbn [bind] in H; [|discriminate] end.
  destruct (l_last_entry_id st (r_log r1)) as [last|]; cbn [bind] in H; [|discriminate].
  assert (S : steps r r1 /\ r_term r1 <= term).
  { destruct t; inv_ok; (split; [apply prim_steps; first [eapply P_pre_candidate; eassumption|eapply P_candidate; eassumption]|lia]). }
  destruct S as (S & T). eapply rt_trans; [exact S|].
  apply emits_steps. eapply campaign_send_emits; eassumption.
Qed.

Lemma campaign_state r t r' :
  campaign st r t = Ok r' ->
  r_state r' = match t with CampaignPreElection => StatePreCandidate | _ => StateCandidate end.
Proof.
  unfold campaign. intros H. apply bind_ok in H. destruct H as ([[r1 vm] term] & E1 & H).
  apply bind_ok in H. destruct H as (last & _ & H).
  assert (S1 : r_state r1 = match t with CampaignPreElection => StatePreCandidate | _ => StateCandidate end /\
               r_term r1 <= term).
  { unfold become_pre_candidate, become_candidate in E1. destruct t; inv_ok; repeat split; cbn; lia. }
  destruct S1 as (S1 & T). rewrite <- S1.
  apply campaign_send_emits, emits_keeps in H; [|exact T]. apply H.
Qed.

Lemma hup_steps r t r' : hup st r t = Ok r' -> steps r r'.
Proof. unfold hup. intros H. inv_ok; try apply rt_refl. eapply campaign_steps; eassumption. Qed.

Lemma poll_steps r id v r' res : poll r id v = (r', res) -> steps r r'.
Proof.
  rewrite poll_eq. intros H. injection H as <- _. rewrite record_vote_eq. apply prim_steps, P_votes.
Qed.

Lemma handle_append_entries_steps r ma r' : handle_append_entries st r ma = Ok r' -> steps r r'.
Proof.
  unfold handle_append_entries. intros H.
  destruct (_ <? _); [apply emits_steps; eapply emit_plain; [exact H|reflexivity]|].
  destruct (l_maybe_append _ _ _ _ _ _) as [[l o]|] eqn:E; cbn [bind] in H; [|discriminate].
  apply l_maybe_append_step in E.
  eapply rt_trans; [apply set_log_steps; exact E|].
  destruct o; [|destruct (l_find_conflict_by_term _ _ _ _)];
    (apply emits_steps; eapply emit_plain; [exact H|reflexivity]).
Qed.

Lemma handle_heartbeat_steps r mh r' : handle_heartbeat st r mh = Ok r' -> steps r r'.
Proof.
  unfold handle_heartbeat. intros H. inv_ok.
  eapply rt_trans; [apply set_log_steps; eapply l_commit_to_step; eassumption|].
  apply emits_steps. eapply emit_plain; [eassumption|reflexivity].
Qed.

Lemma prop_gate_steps es : forall r li i r' es', prop_gate r li i es = (r', es') -> steps r r'.
Proof.
  induction es as [|e es IH]; intros r li i r' es' H; cbn in H; [inversion H; subst; apply rt_refl|].
  repeat match type of H with
  | (if ?c then _ else _) = _ => destruct c
  | (let '(_, _) := ?x in _) = _ => let E := fresh "E" in destruct x eqn:E; apply IH in E
  end; inversion H; subst; try assumption.
  eapply rt_trans; [|eassumption]. local.
Qed.

(* turn the successful calls in the context into their [steps] *)
Ltac fwd :=
  repeat match goal with
  | E : send _ _ = Ok _ |- _ => apply emit_plain, emits_steps in E; [|reflexivity]
  | E : send_append _ _ _ = Ok _ |- _ => apply send_append_emits, emits_steps in E
  | E : send_timeout_now _ _ = Ok _ |- _ => apply send_timeout_now_emits, emits_steps in E
  | E : send_append_loop _ _ _ _ = Ok _ |- _ => apply send_append_loop_emits, emits_steps in E
  | E : bcast_append _ _ = Ok _ |- _ => apply bcast_append_emits, emits_steps in E
  | E : bcast_heartbeat _ = Ok _ |- _ => apply bcast_heartbeat_emits, emits_steps in E
  | E : visit_maybe_send _ _ _ = Ok _ |- _ => apply visit_maybe_send_emits, emits_steps in E
  | E : release_pending_read_index _ _ = Ok _ |- _ => apply release_pending_read_index_emits, emits_steps in E
  | E : send_msg_read_index_response _ _ = Ok _ |- _ => apply send_msg_read_index_response_emits, emits_steps in E
  | E : respond_reads _ _ = Ok _ |- _ => apply respond_reads_emits, emits_steps in E
  | E : maybe_commit _ _ = Ok (_, _) |- _ => apply maybe_commit_steps in E
  | E : maybe_commit _ _ = Ok ?x |- _ => destruct x
  | E : append_entry _ _ _ = Ok (_, _) |- _ => apply append_entry_steps in E
  | E : append_entry _ _ _ = Ok ?x |- _ => destruct x
  | E : prop_gate _ _ _ _ = (_, _) |- _ => apply prop_gate_steps in E
  | E : become_leader _ _ = Ok _ |- _ => apply become_leader_steps in E
  | E : campaign _ _ _ = Ok _ |- _ => apply campaign_steps in E
  | E : hup _ _ _ = Ok _ |- _ => apply hup_steps in E
  | E : poll _ _ _ = (_, _) |- _ => apply poll_steps in E
  | E : handle_append_entries _ _ _ = Ok _ |- _ => apply handle_append_entries_steps in E
  | E : handle_heartbeat _ _ _ = Ok _ |- _ => apply handle_heartbeat_steps in E
  end.

Lemma switch_to_config_steps r cfg pm r' cs :
  changer_result (r_trk r) cfg pm -> switch_to_config st r cfg pm = Ok (r', cs) -> steps r r'.
Proof.
  unfold switch_to_config. intros C H.
  set (r1 := set_r_trk r (t_with_config_progress (r_trk r) cfg pm)) in *.
  assert (S1 : steps r r1) by (apply prim_steps, P_config, C).
  eapply rt_trans; [exact S1|]. clear S1.
  match type of H with context [set_r_is_learner r1 ?b] => set (r2 := set_r_is_learner r1 b) in * end.
  eapply rt_trans; [instantiate (1 := r2); local|].
  destruct ((_ || _) && _).
  - destruct (r_step_down_on_removal r2); inv_ok; [|apply rt_refl].
    eapply become_follower_steps; [|eassumption]. intros _. apply N.le_refl.
  - destruct (_ || _); [inv_ok; apply rt_refl|]. inv_ok; fwd; cbn [fst snd] in *.
    all: eapply rt_trans; [eassumption|]; eapply rt_trans; [eassumption|].
    all: destruct (_ && _); [local|apply rt_refl].
Qed.

Lemma switch_to_config_not_leader r cfg pm x :
  r_state r <> StateLeader -> switch_to_config st r cfg pm = Ok x ->
  exists b, fst x = set_r_is_learner (set_r_trk r (t_with_config_progress (r_trk r) cfg pm)) b.
Proof.
  unfold switch_to_config. cbv zeta. cbn [r_state set_r_is_learner set_r_trk]. intros S.
  assert (L : state_type_eqb (r_state r) StateLeader = false) by (destruct (r_state r); try reflexivity; contradiction).
  rewrite L, andb_false_r. cbn [negb orb]. intros H. injection H as <-. eexists. reflexivity.
Qed.

Lemma apply_conf_change_raft_steps r cc r' cs : apply_conf_change_raft st r cc = Ok (r', cs) -> steps r r'.
Proof.
  unfold apply_conf_change_raft. intros H.
  destruct (apply_conf_change _ _ _) as [[cfg pm]|] eqn:E; [|discriminate].
  eapply switch_to_config_steps; [|exact H]. left. eauto.
Qed.

Lemma restore_steps r s r' b : restore st r s = Ok (r', b) -> steps r r'.
Proof.
  unfold restore. intros H.
  destruct (s_index s <=? l_committed (r_log r)) eqn:EC; [inversion H; subst; apply rt_refl|]. apply N.leb_gt in EC.
  destruct (negb (state_type_eqb (r_state r) StateFollower)) eqn:SF.
  { inv_ok. eapply become_follower_steps; [|eassumption]. intros _. lia. }
  destruct (negb (_ || _)); [inversion H; subst; apply rt_refl|].
  destruct (l_match_term _ _ _ _).
  { inv_ok. apply set_log_steps. eapply l_commit_to_step; eassumption. }
  set (r1 := set_r_log r (l_restore (r_log r) s)) in *.
  set (r2 := set_r_trk r1 (make_tracker (t_max_inflight (r_trk r1)) (t_max_inflight_bytes (r_trk r1)))) in *.
  destruct (cc_restore _ _ _) as [[cfg pm]|] eqn:E; [|discriminate].
  destruct (switch_to_config st r2 cfg pm) as [[r3 cs]|] eqn:ES; cbn [bind] in H; [|discriminate].
  assert (r' = r3) by (destruct (confstate_equiv _ _); inversion H; reflexivity). subst r3.
  eapply rt_trans; [apply (set_log_steps r (l_restore (r_log r) s)); unfold log_step; cbn; repeat split; lia|]. fold r1.
  eapply rt_trans; [apply prim_steps, P_tracker|].
  { change (r_state r = StateFollower). apply negb_false_iff in SF. destruct (r_state r); try discriminate SF; reflexivity. }
  eapply switch_to_config_steps; [|exact ES]. right. eauto.
Qed.

Lemma handle_snapshot_steps r ms r' : handle_snapshot st r ms = Ok r' -> steps r r'.
Proof.
  unfold handle_snapshot. intros H. inv_ok.
  match goal with E : restore _ _ _ = Ok _ |- _ => apply restore_steps in E end.
  eapply rt_trans; [eassumption|]. apply emits_steps. eapply emit_plain; [eassumption|reflexivity].
Qed.

(* a Progress reached through its methods, whichever branch the code took *)
Ltac ops :=
  repeat match goal with
  | |- context [if ?c then _ else _] => destruct c
  | |- context [match pr_state_ ?p with _ => _ end] => destruct (pr_state_ p)
  end; eauto 8 using ops_step, ops_refl, pr_op.

Lemma put_ops_steps r id p p' : get_progress r id = Some p -> pr_ops p p' -> steps r (put_progress r id p').
Proof. intros G O. apply emits_steps. one. eapply E_progress; eassumption. Qed.

Lemma ro_recv_ack_option ro from ctx ro' : ro_recv_ack ro from ctx = Ok ro' -> ro_option ro' = ro_option ro.
Proof. unfold ro_recv_ack. intros H. inv_ok; reflexivity. Qed.

Lemma ro_maybe_advance_option ro c0 c1 ro' l :
  ro_maybe_advance ro c0 c1 = Ok (ro', l) -> ro_option ro' = ro_option ro.
Proof. unfold ro_maybe_advance. intros H. inv_ok; reflexivity. Qed.

Lemma step_leader_steps r r' e : step_leader st r m = Ok (r', e) -> steps r r'.
Proof.
  unfold step_leader. intros H.
  destruct (m_type m) eqn:T;
    try (destruct (get_progress r (m_from m)) as [pr|] eqn:G; [|inversion H; subst; apply rt_refl]);
    try (inversion H; subst; apply rt_refl).
  - (* MsgBeat *) inv_ok. fwd. assumption.
  - (* MsgProp *)
    destruct (m_entries m); [discriminate|]. destruct (get_progress r (r_id r)); [|inv_ok; apply rt_refl].
    destruct (negb _); [inv_ok; apply rt_refl|]. inv_ok; fwd; cbn [fst snd] in *; chain.
  - (* MsgAppResp *)
    set (pa := pr_with_recent_active pr true) in *. set (r1 := put_progress r (m_from m) pa) in *.
    assert (S1 : steps r r1).
    { apply prim_steps. eapply P_active; [exact G|apply rt_refl|right; auto]. }
    assert (G1 : get_progress r1 (m_from m) = Some pa) by apply get_put_progress.
    eapply rt_trans; [exact S1|]. clear S1.
    assert (PUT : forall p', pr_ops pa p' -> steps r1 (put_progress r1 (m_from m) p'))
      by (intros p'; apply put_ops_steps; exact G1).
    inv_ok; fwd; cbn [fst snd] in *.
    all: eapply rt_trans; [apply PUT|chain]; ops.
  - (* MsgHeartbeatResp *)
    set (r1 := put_progress r (m_from m) (pr_with_paused (pr_with_recent_active pr true) false)) in *.
    assert (S1 : steps r r1).
    { apply prim_steps. eapply P_active; [exact G|one; apply op_paused|right; auto]. }
    eapply rt_trans; [exact S1|]. clear S1.
    match type of H with bind ?x _ = _ => destruct x as [r2|] eqn:E2; cbn [bind] in H; [|discriminate] end.
    assert (S2 : steps r1 r2) by (destruct (_ || _); [fwd; exact E2|inversion E2; apply rt_refl]).
    eapply rt_trans; [exact S2|]. clear S2 E2.
    destruct (ro_option (r_read_only r2)); [|inversion H; apply rt_refl].
    destruct (m_context m); [inversion H; apply rt_refl|].
    destruct (ro_recv_ack _ _ _) as [ro|] eqn:EA; cbn [bind] in H; [|discriminate].
    destruct (ro_maybe_advance _ _ _) as [[ro' l]|] eqn:EM; cbn [bind fst snd] in H; [|discriminate].
    inv_ok. fwd. eapply rt_trans; [|eassumption].
    apply emits_steps. one. apply E_read_only.
    apply ro_recv_ack_option in EA. apply ro_maybe_advance_option in EM. congruence.
  - (* MsgUnreachable *) inversion H; subst. apply put_ops_steps with (p := pr); [exact G|ops].
  - (* MsgSnapStatus *)
    destruct (negb _); [inversion H; subst; apply rt_refl|].
    inversion H; subst. apply put_ops_steps with (p := pr); [exact G|ops].
  - (* MsgCheckQuorum *)
    inv_ok; (eapply rt_trans; [|apply prim_steps, P_inactive]);
      [eapply become_follower_steps; [|eassumption]; intros _; apply N.le_refl|apply rt_refl].
  - (* MsgTransferLeader *)
    destruct (pr_is_learner pr); [inversion H; subst; apply rt_refl|].
    destruct (_ && _); [inversion H; subst; apply rt_refl|].
    match type of H with context [N.eqb (m_from m) (r_id ?x)] => set (r1 := x) in * end.
    assert (S1 : steps r r1) by (subst r1; destruct (negb _); [local|apply rt_refl]).
    eapply rt_trans; [exact S1|]. clear S1.
    destruct (N.eqb (m_from m) (r_id r1)); [inversion H; subst; apply rt_refl|].
    eapply rt_trans; [apply prim_steps, P_transfer_timer, T|].
    eapply rt_trans; [instantiate (1 := set_r_lead_transferee (set_r_election_elapsed r1 0) (m_from m)); local|].
    inv_ok; fwd; assumption.
  - (* MsgReadIndex *)
    destruct (negb _); inv_ok; [local|fwd; assumption].
Qed.

(* a candidate follows a leader message only at the message's term, which the term check at the top
   of Step has made at least its own *)
Lemma step_candidate_steps r r' e :
  (m_term m <> 0 -> r_term r <= m_term m) ->
  step_candidate st r m = Ok (r', e) -> steps r r'.
Proof.
  unfold step_candidate. intros D H.
  destruct (m_type m) eqn:T; try (inversion H; subst; apply rt_refl).
  all: try match type of H with bind (become_follower _ _ _ _) _ = _ =>
    inv_ok; fwd; (eapply rt_trans; [eapply become_follower_steps; [unfold leader_msg_has_term; rewrite T; exact D|eassumption]|
                  first [assumption|eapply handle_snapshot_steps; eassumption]]) end.
  all: destruct (msg_type_eqb _ _); [|inversion H; subst; apply rt_refl].
  all: destruct (_ && _ && _); [inversion H; subst; apply rt_refl|].
  all: destruct (poll r (m_from m) (negb (m_reject m))) as [r1 res] eqn:EP.
  all: apply poll_steps in EP; (eapply rt_trans; [exact EP|]).
  all: destruct res; try (inversion H; subst; apply rt_refl).
  all: try (inv_ok; eapply become_follower_steps; [|eassumption]; intros _; apply N.le_refl).
  all: destruct (state_type_eqb (r_state r1) StatePreCandidate); [inv_ok; fwd; assumption|].
  all: destruct (alookup _ _) as [[|]|]; try (inversion H; subst; apply rt_refl).
  all: inv_ok; fwd; chain.
Qed.

Lemma step_follower_steps r r' e :
  r_state r = StateFollower -> step_follower st r m = Ok (r', e) -> steps r r'.
Proof.
  unfold step_follower. intros SF H.
  assert (FOLLOW : steps r (set_r_lead (set_r_election_elapsed r 0) (m_from m)))
    by (apply prim_steps, P_follow, SF).
  destruct (m_type m) eqn:T; try (inversion H; subst; apply rt_refl).
  - (* MsgProp *)
    destruct (N.eqb (r_lead r) NoneId); [inversion H; subst; apply rt_refl|].
    destruct (r_disable_proposal_forwarding r); [inversion H; subst; apply rt_refl|].
    inv_ok. apply emits_steps. eapply emit_plain; [eassumption|cbn; rewrite T; reflexivity].
  - inv_ok; fwd; chain.
  - inv_ok. eapply rt_trans; [exact FOLLOW|eapply handle_snapshot_steps; eassumption].
  - inv_ok; fwd; chain.
  - (* MsgTransferLeader *)
    destruct (N.eqb (r_lead r) NoneId); [inversion H; subst; apply rt_refl|].
    inv_ok. apply emits_steps. eapply emit_plain; [eassumption|cbn; rewrite T; reflexivity].
  - (* MsgTimeoutNow *) inv_ok; fwd; assumption.
  - (* MsgReadIndex *)
    destruct (N.eqb (r_lead r) NoneId); [inversion H; subst; apply rt_refl|].
    inv_ok. apply emits_steps. eapply emit_plain; [eassumption|cbn; rewrite T; reflexivity].
  - (* MsgReadIndexResp *)
    destruct (m_entries m) as [|? [|]]; inversion H; subst; try apply rt_refl. local.
  - (* MsgForgetLeader *)
    destruct (ro_option _); inversion H; subst; [apply prim_steps, P_forget, SF|apply rt_refl].
Qed.

Section StepGen.
Variable step_rec : raft -> message -> res (raft * err).
Hypothesis step_rec_steps : forall r r' e,
  step_rec r leave_joint_prop = Ok (r', e) -> RaftSteps.steps st leave_joint_prop r r'.

Lemma nested_steps r r' : RaftSteps.steps st leave_joint_prop r r' -> steps r r'.
Proof.
  induction 1 as [a b [P|P]| |]; [one; right; exact P|one; right; exact P|apply rt_refl|eapply rt_trans; eassumption].
Qed.

Lemma applied_to_steps r i s r' :
  ack_applied m i \/ i = l_applied (r_log r) -> applied_to step_rec r i s = Ok r' -> steps r r'.
Proof.
  intros A H. destruct (applied_to_eq _ _ _ _ _ H) as (l & EL & K).
  eapply rt_trans; [apply prim_steps; eapply P_applied; [exact EL|exact A]|].
  destruct (_ && _ && _); [|rewrite K; apply rt_refl].
  destruct K as ([r2 e2] & ES & ->). apply nested_steps. eapply step_rec_steps. exact ES.
Qed.

Lemma applied_snap_steps r s r' :
  ack_applied m (s_index s) -> applied_snap step_rec r s = Ok r' -> steps r r'.
Proof.
  unfold applied_snap. intros A H.
  eapply rt_trans; [|eapply applied_to_steps; [left; exact A|exact H]].
  apply set_log_steps. apply l_with_unstable_step.
Qed.

(* the term check at the top of Step: a message that goes on to the type switch carries no term,
   the node's term, or (a pre-vote or a granted pre-vote) a higher one *)
Definition term_checked (r : raft) : Prop :=
  m_term m = 0 \/ r_term r = m_term m \/
  (r_term r < m_term m /\ (m_type m = MsgPreVote \/ m_type m = MsgPreVoteResp)).

Lemma step_preamble_steps r r1 c :
  step_preamble st step_rec r m = Ok (r1, c) -> steps r r1 /\ (c = true -> term_checked r1).
Proof.
  unfold step_preamble, term_checked. intros H.
  destruct (N.eqb (m_term m) 0) eqn:E0.
  { inversion H; subst. apply N.eqb_eq in E0. split; [apply rt_refl|auto]. }
  destruct (r_term r <? m_term m) eqn:E1.
  { apply N.ltb_lt in E1.
    assert (BF : forall lead r2, become_follower st r (m_term m) lead = Ok r2 ->
                   steps r r2 /\ r_term r2 = m_term m).
    { intros lead r2 EB. split; [eapply become_follower_steps; [|exact EB]; intros _; lia|].
      destruct (become_follower_eq _ _ _ _ _ EB) as (r3 & ER & ->).
      destruct (reset_eq _ _ _ _ ER) as (d & ds & _ & ->). reflexivity. }
    destruct (_ && _ && _); [inversion H; subst; split; [apply rt_refl|discriminate]|].
    destruct (m_type m) eqn:T; try (destruct (negb (m_reject m)));
      try (inversion H; subst; split; [apply rt_refl|intros _; right; right; auto]);
      (destruct (become_follower _ _ _ _) as [r2|] eqn:EB; cbn [bind] in H; [|discriminate]);
      inversion H; subst; destruct (BF _ _ EB) as [S TT]; (split; [exact S|auto]). }
  destruct (m_term m <? r_term r) eqn:E2.
  { assert (c = false /\ steps r r1) as [C S]; [|subst c; split; [exact S|discriminate]].
    destruct (m_type m) eqn:T; try (inversion H; subst; split; [reflexivity|apply rt_refl]).
    - destruct (_ || _); inv_ok; (split; [reflexivity|]); [|apply rt_refl].
      apply emits_steps. eapply emit_plain; [eassumption|reflexivity].
    - destruct (_ || _); inv_ok; (split; [reflexivity|]); [|apply rt_refl].
      apply emits_steps. eapply emit_plain; [eassumption|reflexivity].
    - inv_ok. split; [reflexivity|]. apply emits_steps. one. eapply E_send; [eassumption|].
      intros _. right. apply N.le_refl.
    - destruct (m_snapshot m) as [sn|] eqn:ES; inv_ok; (split; [reflexivity|]); [|apply rt_refl].
      eapply applied_snap_steps; [|eassumption]. unfold ack_applied. rewrite T, ES. reflexivity. }
  inversion H; subst. split; [apply rt_refl|]. intros _. right. left.
  apply N.ltb_ge in E1. apply N.ltb_ge in E2. lia.
Qed.

Lemma step_role_steps r x :
  term_checked r ->
  match r_state r with
  | StateFollower => step_follower st r m
  | StateCandidate | StatePreCandidate => step_candidate st r m
  | StateLeader => step_leader st r m
  end = Ok x -> steps r (fst x).
Proof.
  intros D H. destruct x as [r' e]. cbn [fst].
  assert (D1 : m_term m <> 0 -> r_term r <= m_term m) by (destruct D as [D|[D|[D _]]]; lia).
  destruct (r_state r) eqn:RS.
  - eapply step_follower_steps; eassumption.
  - eapply step_candidate_steps; eassumption.
  - eapply step_leader_steps; eassumption.
  - eapply step_candidate_steps; eassumption.
Qed.

Lemma step_transfer_leader_steps r r' e :
  term_checked r -> step_transfer_leader st step_rec r m = Ok (r', e) -> steps r r'.
Proof.
  unfold step_transfer_leader. intros D H.
  match type of H with bind ?y _ = _ => destruct y as [x|] eqn:E1; cbn [bind] in H; [|discriminate] end.
  apply (step_role_steps _ _ D) in E1.
  destruct (_ && _); [|inversion H; subst; exact E1].
  match type of H with bind ?y _ = _ => destruct y as [r2|] eqn:E2; cbn [bind] in H; [|discriminate] end.
  inversion H; subst. eapply rt_trans; [exact E1|]. eapply applied_to_steps; [right; reflexivity|exact E2].
Qed.

Lemma step_dispatch_steps r r' e :
  term_checked r -> step_dispatch st step_rec r m = Ok (r', e) -> steps r r'.
Proof.
  unfold step_dispatch. intros D H.
  destruct (m_type m) eqn:T;
    try (apply (step_role_steps r (r', e) D); exact H);
    try (eapply step_transfer_leader_steps; eassumption).
  - (* MsgHup *) inv_ok. fwd. assumption.
  - (* MsgVote *)
    destruct (l_is_up_to_date _ _ _ _) as [utd|]; cbn [bind] in H; [|discriminate].
    rewrite andb_false_l, orb_false_r in H.
    destruct (_ && utd) eqn:CV.
    + destruct (send r _) as [r1|] eqn:ES; cbn [bind] in H; [|discriminate]. inversion H; subst.
      destruct (send_keeps _ _ _ ES) as [K|K];
        (eapply rt_trans; [apply emits_steps; one; eapply E_send; [exact ES|intros _; destruct D as [D|[D|[D _]]]; cbn; lia]|]);
        apply prim_steps, P_vote; try exact T; rewrite K; cbn;
        apply andb_true_iff in CV; destruct CV as [CV _]; bool_to_prop; unfold NoneId in *; tauto.
    + inv_ok. apply emits_steps. one. eapply E_send; [eassumption|]. intros _. right. apply N.le_refl.
  - (* MsgPreVote *)
    destruct (l_is_up_to_date _ _ _ _) as [utd|]; cbn [bind] in H; [|discriminate].
    destruct (_ && utd); inv_ok; apply emits_steps; one; (eapply E_send; [eassumption|]); intros _; cbn.
    + destruct D as [D|[D|[D _]]]; lia.
    + right. apply N.le_refl.
  - (* MsgStorageAppendResp *)
    match type of H with (match _ with Some s => bind (applied_snap _ ?x s) _ | None => _ end) = _ => set (r0 := x) in * end.
    assert (S0 : steps r r0).
    { subst r0. destruct (negb _); [|apply rt_refl]. apply set_log_steps, l_with_unstable_step. }
    eapply rt_trans; [exact S0|].
    destruct (m_snapshot m) as [s|] eqn:ES; inv_ok; [|apply rt_refl].
    eapply applied_snap_steps; [|eassumption]. unfold ack_applied. rewrite T, ES. reflexivity.
  - (* MsgStorageApplyResp *)
    destruct (last_opt (m_entries m)) as [e0|] eqn:EL; inv_ok; [|apply rt_refl].
    eapply rt_trans; [eapply applied_to_steps; [left|eassumption]|].
    + unfold ack_applied. rewrite T, EL. reflexivity.
    + unfold reduce_uncommitted_size. destruct (_ <? _); local.
Qed.

Lemma step_gen_steps r r' e : step_gen st step_rec r m = Ok (r', e) -> steps r r'.
Proof.
  unfold step_gen. intros H.
  destruct (step_preamble st step_rec r m) as [[r1 c]|] eqn:EP; cbn [bind] in H; [|discriminate].
  apply step_preamble_steps in EP. destruct EP as [S1 D].
  destruct c; cbn [negb] in H; [|inversion H; subst; exact S1].
  eapply rt_trans; [exact S1|]. eapply step_dispatch_steps; [exact (D eq_refl)|exact H].
Qed.

End StepGen.
End Walk.

Lemma step_inner_steps st r r' e :
  step_inner st r leave_joint_prop = Ok (r', e) -> steps st leave_joint_prop r r'.
Proof. unfold step_inner. apply step_gen_steps. unfold step_leaf. discriminate. Qed.

Theorem step_steps st m r r' e : step st r m = Ok (r', e) -> steps st m r r'.
Proof. unfold step. apply step_gen_steps. apply step_inner_steps. Qed.

Lemma step_gen_local st k r m : m_term m = 0 -> step_gen st k r m = step_dispatch st k r m.
Proof. intros Z. unfold step_gen, step_preamble. rewrite Z. reflexivity. Qed.

Lemma step_local st r m : m_term m = 0 -> step st r m = step_dispatch st (step_inner st) r m.
Proof. unfold step. apply step_gen_local. Qed.

Definition tick_msg (m : message) : Prop :=
  exists t id, m = set_from (msg0 t) id /\ (t = MsgHup \/ t = MsgCheckQuorum \/ t = MsgBeat).

(* a tick moves the election timer and steps local messages *)
Definition tsteps (st : memstorage) : raft -> raft -> Prop :=
  clos_refl_trans raft (fun r r' =>
    (exists v, r' = set_r_election_elapsed r v) \/
    exists m, tick_msg m /\ (prim st m r r' \/ prim st leave_joint_prop r r')).

Lemma tsteps_in st (R : raft -> raft -> Prop) :
  (forall r, R r r) -> (forall a b c, R a b -> R b c -> R a c) ->
  (forall r v, R r (set_r_election_elapsed r v)) ->
  (forall m r r', tick_msg m -> prim st m r r' -> R r r') ->
  (forall r r', prim st leave_joint_prop r r' -> R r r') ->
  forall r r', tsteps st r r' -> R r r'.
Proof.
  intros Rr Rt Re R1 R2 r r'. induction 1 as [a b [[v E]|[m [M [P|P]]]]| |]; subst; eauto.
Qed.

Section Tick.
Variable st : memstorage.

Ltac step_in E :=
  match type of E with bind (step ?s ?r ?m) _ = _ =>
    let ES := fresh "ES" in
    destruct (step s r m) as [[? ?]|] eqn:ES; cbn [bind fst] in E; [|discriminate];
    apply step_steps in ES; inversion E; subst; clear E
  end.

Lemma steps_ticks m r r' : tick_msg m -> steps st m r r' -> tsteps st r r'.
Proof.
  intros M. induction 1 as [a b P| |]; [one; right; exists m; auto|apply rt_refl|eapply rt_trans; eassumption].
Qed.

Lemma elapsed_ticks r v : tsteps st r (set_r_election_elapsed r v).
Proof. one. left. eauto. Qed.

Lemma tick_msg_beat id : tick_msg (set_from (msg0 MsgBeat) id).
Proof. exists MsgBeat, id. auto. Qed.

(* bookkeeping belongs to no message: any tick message carries it *)
Lemma local_ticks r r' : same_core r r' -> tsteps st r r'.
Proof. intros H. apply (steps_ticks _ _ _ (tick_msg_beat 0)), local_steps, H. Qed.

Lemma tick_election_ticks r r' : tick_election st r = Ok r' -> tsteps st r r'.
Proof.
  unfold tick_election. intros H.
  eapply rt_trans; [apply (elapsed_ticks r)|].
  destruct (_ && _); [|inversion H; apply rt_refl].
  eapply rt_trans; [apply elapsed_ticks|]. step_in H.
  eapply steps_ticks; [|eassumption]. eexists _, _. split; [reflexivity|auto].
Qed.

(* tickHeartbeat in stages: both timers advance; when the election timeout has run out, the timer
   restarts, CheckQuorum (if enabled) is stepped and a pending leadership transfer is given up;
   then the heartbeat *)
Definition tick_timers (r : raft) : raft :=
  set_r_election_elapsed (set_r_heartbeat_elapsed r (r_heartbeat_elapsed r + 1)) (r_election_elapsed r + 1).

Definition tick_check (r : raft) : res raft :=
  do r <- (if r_check_quorum r then do x <- step st r (set_from (msg0 MsgCheckQuorum) (r_id r)); Ok (fst x) else Ok r);
  if state_type_eqb (r_state r) StateLeader && negb (N.eqb (r_lead_transferee r) NoneId)
  then applied_to_top st (set_r_lead_transferee r NoneId) (l_applied (r_log r)) 0
  else Ok r.

Definition tick_beat (r : raft) : res raft :=
  if negb (state_type_eqb (r_state r) StateLeader) then Ok r else
  if r_heartbeat_timeout r <=? r_heartbeat_elapsed r
  then do x <- step st (set_r_heartbeat_elapsed r 0) (set_from (msg0 MsgBeat) (r_id r)); Ok (fst x)
  else Ok r.

Lemma tick_heartbeat_stages r :
  tick_heartbeat st r =
  do r1 <- (if r_election_timeout r <=? r_election_elapsed r + 1
            then tick_check (set_r_election_elapsed (tick_timers r) 0) else Ok (tick_timers r));
  tick_beat r1.
Proof. reflexivity. Qed.

Lemma tick_check_ticks r r' : tick_check r = Ok r' -> tsteps st r r'.
Proof.
  unfold tick_check. intros H. apply bind_ok in H. destruct H as (r1 & E1 & H).
  apply (rt_trans _ _ _ r1).
  - destruct (r_check_quorum r); [|inversion E1; apply rt_refl]. step_in E1.
    eapply steps_ticks; [|eassumption]. eexists _, _. split; [reflexivity|auto].
  - destruct (_ && _); [|inversion H; apply rt_refl].
    apply (rt_trans _ _ _ (set_r_lead_transferee r1 NoneId)); [apply local_ticks; reflexivity|].
    apply (steps_ticks _ _ _ (tick_msg_beat 0)).
    eapply applied_to_steps; [apply step_inner_steps|right; reflexivity|exact H].
Qed.

Lemma tick_beat_ticks r r' : tick_beat r = Ok r' -> tsteps st r r'.
Proof.
  unfold tick_beat. intros H. destruct (negb _); [inversion H; apply rt_refl|].
  destruct (_ <=? _); [|inversion H; apply rt_refl].
  apply (rt_trans _ _ _ (set_r_heartbeat_elapsed r 0)); [apply local_ticks; reflexivity|].
  step_in H. eapply steps_ticks; [|eassumption]. apply tick_msg_beat.
Qed.

Lemma tick_heartbeat_ticks r r' : tick_heartbeat st r = Ok r' -> tsteps st r r'.
Proof.
  rewrite tick_heartbeat_stages. intros H. apply bind_ok in H. destruct H as (r1 & E1 & H).
  apply (rt_trans _ _ _ (set_r_heartbeat_elapsed r (r_heartbeat_elapsed r + 1))); [apply local_ticks; reflexivity|].
  apply (rt_trans _ _ _ (tick_timers r)); [apply elapsed_ticks|].
  apply (rt_trans _ _ _ r1); [|apply tick_beat_ticks; exact H].
  destruct (_ <=? _); [|inversion E1; apply rt_refl].
  eapply rt_trans; [apply elapsed_ticks|apply tick_check_ticks; exact E1].
Qed.

Theorem tick_ticks r r' : tick st r = Ok r' -> tsteps st r r'.
Proof.
  unfold tick. destruct (r_state r); first [apply tick_election_ticks | apply tick_heartbeat_ticks].
Qed.

End Tick.
