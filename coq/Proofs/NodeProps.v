(* NodeProps.v: acceptReady by what it leaves in the raft state and in the queue for Advance.  With
   this the per-function results (RaftMono, RaftRouting) are lifted to the RawNode API, by cases on
   the calls of NodeSteps, and to arbitrary input sequences of one node (node_step), including
   restart from storage. *)
From Coq Require Import List NArith Bool Lia.
From RaftV Require Import Base Types Quorum Progress Tracker Storage Log Raft RawNode Tactics
     RaftSteps NodeSteps RaftMono RaftRouting.
Import ListNotations.
Open Scope N_scope.

Definition nl (m : message) : Prop := from_leader (m_type m) = false.

Lemma promise_nl m : is_promise m -> nl m.
Proof. unfold is_promise, nl, promise_type, from_leader. destruct (m_type m); congruence. Qed.

Lemma nl_wf m : nl m -> wf_msg m.
Proof. unfold nl, wf_msg. congruence. Qed.

(* invariant of a RawNode: nothing queued for local stepping at Advance is a leader message, and only
   promises wait in msgsAfterAppend (acceptReady moves those addressed to the node itself to the former) *)
Definition inv_rn (rn : rawnode) : Prop :=
  Forall nl (rn_steps_on_advance rn) /\ Forall is_promise (r_msgs_after_append (rn_raft rn)).

Definition wf_input (i : ninput) : Prop :=
  match i with IStep m => wf_msg m | _ => True end.

Definition same_incarnation (i : ninput) : bool :=
  match i with INew _ | IStop => false | _ => true end.

Definition node_hs (n : nstate) : option hardstate :=
  match n_rn n with Some rn => Some (hard_state (rn_raft rn)) | None => None end.

Definition inv_node (n : nstate) : Prop :=
  match n_rn n with Some rn => inv_rn rn | None => True end.

Lemma with_draws_inv rn d : inv_rn rn -> inv_rn (with_draws rn d).
Proof. unfold inv_rn, with_draws. cbn. auto. Qed.
Lemma with_draws_hs rn d : hard_state (rn_raft (with_draws rn d)) = hard_state (rn_raft rn).
Proof. reflexivity. Qed.

Lemma ext_maa r r' : ext r r' -> Forall is_promise (r_msgs_after_append r) -> Forall is_promise (r_msgs_after_append r').
Proof.
  intros (_ & _ & (l & E & F)) H. rewrite E. apply Forall_app. split; assumption.
Qed.

Lemma with_raft_props rn r :
  inv_rn rn -> mono (rn_raft rn) r -> ext (rn_raft rn) r ->
  inv_rn (rn_with_raft rn r) /\ mono (rn_raft rn) (rn_raft (rn_with_raft rn r)).
Proof. intros [IS IM] M X. split; [split; [exact IS|eapply ext_maa; eassumption]|exact M]. Qed.

Section WithStorage.
Variable st : memstorage.

Lemma storage_append_resp_ok r snap m :
  storage_append_resp st r snap = Ok m ->
  m_type m = MsgStorageAppendResp /\ m_snapshot m = if opt_snap_empty snap then None else snap.
Proof.
  unfold storage_append_resp. intros H. apply bind_ok in H. destruct H as (idt & _ & H).
  injection H as <-. split; reflexivity.
Qed.

(* acceptReady on the raft state: both queues are emptied and the log's in-progress marks move;
   the hard state, the role and the tracker stay *)
Lemma accept_ready_raft rn rd rn' :
  accept_ready st rn rd = Ok rn' ->
  same_hs (rn_raft rn) (rn_raft rn') /\
  r_msgs (rn_raft rn') = [] /\ r_msgs_after_append (rn_raft rn') = [] /\
  l_applied (r_log (rn_raft rn')) = l_applied (r_log (rn_raft rn)) /\
  l_applying (r_log (rn_raft rn')) =
    match last_opt (rd_committed rd) with Some e => e_index e | None => l_applying (r_log (rn_raft rn)) end /\
  r_id (rn_raft rn') = r_id (rn_raft rn) /\ r_state (rn_raft rn') = r_state (rn_raft rn) /\
  r_lead (rn_raft rn') = r_lead (rn_raft rn) /\ r_trk (rn_raft rn') = r_trk (rn_raft rn).
Proof.
  unfold accept_ready. cbv zeta. intros H.
  apply bind_ok in H. destruct H as (q & _ & H).
  apply bind_ok in H. destruct H as (r2 & E & H). injection H as <-. cbn [rn_raft].
  destruct (last_opt (rd_committed rd)) as [e|].
  - apply bind_ok in E. destruct E as (l & EL & E). injection E as <-.
    unfold l_accept_applying in EL. destruct (_ <? _); [discriminate|]. injection EL as <-.
    destruct (rd_read_states rd); unfold same_hs; cbn; repeat split; reflexivity.
  - injection E as <-. destruct (rd_read_states rd); unfold same_hs; cbn; repeat split; reflexivity.
Qed.

(* acceptReady, the queue for Advance: the asynchronous interface leaves it alone; the synchronous
   one queues the messages after append addressed to the node itself, the response of the append
   thread (it carries the snapshot of the Ready) and the response of the apply thread (it carries
   the committed entries of the Ready) *)
Lemma accept_ready_queue rn rd rn' m :
  accept_ready st rn rd = Ok rn' -> In m (rn_steps_on_advance rn') ->
  (rn_async rn = true /\ In m (rn_steps_on_advance rn)) \/
  In m (r_msgs_after_append (rn_raft rn)) \/
  (m_type m = MsgStorageAppendResp /\
   m_snapshot m = if opt_snap_empty (rd_snapshot rd) then None else rd_snapshot rd) \/
  (m_type m = MsgStorageApplyResp /\ m_entries m = rd_committed rd /\ rd_committed rd <> []).
Proof.
  unfold accept_ready. cbv zeta. intros H.
  apply bind_ok in H. destruct H as (q & ES & H).
  apply bind_ok in H. destruct H as (r2 & _ & H). injection H as <-. cbn [rn_steps_on_advance].
  destruct (rn_async rn); [injection ES as <-; auto|].
  destruct (rn_steps_on_advance rn); [|discriminate].
  apply bind_ok in ES. destruct ES as (s2 & E2 & ES). injection ES as <-.
  intros I. apply in_app_or in I. destruct I as [I|I].
  { apply filter_In in I. destruct (rd_read_states rd); right; left; apply I. }
  apply in_app_or in I. destruct I as [I|I]; right; right.
  - left. destruct (need_storage_append_resp _ _); [|injection E2 as <-; destruct I].
    apply bind_ok in E2. destruct E2 as (m2 & E3 & E2). injection E2 as <-.
    destruct I as [<-|[]]. exact (storage_append_resp_ok _ _ _ E3).
  - right. destruct (rd_committed rd) as [|c cs]; [destruct I|].
    destruct I as [<-|[]]. split; [reflexivity|]. split; [reflexivity|discriminate].
Qed.

Lemma accept_ready_props rn rd rn' :
  inv_rn rn -> accept_ready st rn rd = Ok rn' ->
  inv_rn rn' /\ same_hs (rn_raft rn) (rn_raft rn').
Proof.
  intros [IS IM] H. destruct (accept_ready_raft _ _ _ H) as (S & _ & A & _).
  split; [|exact S]. split; [|rewrite A; constructor].
  rewrite Forall_forall in *. intros m I.
  destruct (accept_ready_queue _ _ _ _ H I) as [[_ J]|[J|[[J _]|[J _]]]];
    [exact (IS _ J)|exact (promise_nl _ (IM _ J))| |]; unfold nl; rewrite J; reflexivity.
Qed.

Lemma ready_without_accept_ok rn rd :
  ready_without_accept st rn = Ok rd ->
  l_next_committed_ents st (r_log (rn_raft rn)) (negb (rn_async rn)) = Ok (rd_committed rd) /\
  rd_hard rd = if hs_eqb (hard_state (rn_raft rn)) (rn_prev_hard rn) then None else Some (hard_state (rn_raft rn)).
Proof.
  unfold ready_without_accept. cbv zeta. intros H. apply bind_ok in H. destruct H as (cents & EC & H).
  destruct (rn_async rn); [apply bind_ok in H; destruct H as (sa & _ & H)|].
  all: injection H as <-; split; [exact EC|reflexivity].
Qed.

Lemma rn_ready_props rn rn' rd :
  inv_rn rn -> rn_ready st rn = Ok (rn', rd) ->
  inv_rn rn' /\ same_hs (rn_raft rn) (rn_raft rn') /\
  (forall h, rd_hard rd = Some h -> h = hard_state (rn_raft rn)).
Proof.
  intros I H. destruct (rn_ready_ok _ _ _ _ H) as [E EA].
  destruct (accept_ready_props _ _ _ I EA) as [I' S]. split; [exact I'|]. split; [exact S|].
  intros h Hh. rewrite (proj2 (ready_without_accept_ok _ _ E)) in Hh.
  destruct (hs_eqb _ _); [discriminate|]. injection Hh as <-. reflexivity.
Qed.

Lemma step_all_props ms r r' :
  Forall nl ms -> step_all st r ms = Ok r' -> mono r r' /\ ext r r'.
Proof.
  intros F. rewrite Forall_forall in F. apply (step_all_in st (fun a b => mono a b /\ ext a b)).
  - intros a. split; [apply mono_refl|apply ext_refl].
  - intros a b c [M1 X1] [M2 X2]. split; [eapply mono_trans|eapply ext_trans]; eassumption.
  - intros m a b I S. split; [eapply steps_mono; [apply nl_wf, F, I|exact S]|eapply steps_ext; exact S].
Qed.

Lemma raft_step_props rn m rn' e :
  inv_rn rn -> wf_msg m -> rn_raft_step st rn m = Ok (rn', e) ->
  inv_rn rn' /\ mono (rn_raft rn) (rn_raft rn').
Proof.
  intros I W H. destruct (rn_raft_step_ok _ _ _ _ _ H) as (r & E & ->).
  apply with_raft_props; [exact I|eapply step_mono; eassumption|eapply step_ext; exact E].
Qed.

Lemma api_wf m : api_type (m_type m) = true -> wf_msg m.
Proof. unfold wf_msg. destruct (m_type m); discriminate. Qed.

Lemma rn_call_props i out rn rn' :
  inv_rn rn -> wf_input i -> rn_call st i out rn rn' ->
  inv_rn rn' /\ mono (rn_raft rn) (rn_raft rn').
Proof.
  intros I W C. destruct C as [rn' _ _ H|_ _|m rn' e Ei _ H|m rn' e _ _ A T H|cc rn' cs _ _ H|rn' rd _ _ H|_ _|rn' _ _ H].
  - destruct (rn_tick_ok _ _ _ H) as (r & E & ->).
    apply with_raft_props; [exact I|eapply tick_mono; exact E|eapply tick_ext; exact E].
  - apply with_raft_props; [exact I|apply same_hs_mono; same_hs_done|apply ext_frame; reflexivity].
  - subst i. destruct (rn_step_ok _ _ _ _ _ H) as [->|H1]; [split; [exact I|apply mono_refl]|].
    eapply raft_step_props; [exact I|exact W|exact H1].
  - eapply raft_step_props; [exact I|exact (api_wf _ A)|exact H].
  - destruct (rn_apply_conf_change_ok _ _ _ _ _ H) as (r & E & ->).
    apply with_raft_props; [exact I|eapply apply_conf_change_raft_mono; exact E|eapply apply_conf_change_raft_ext; exact E].
  - destruct (rn_ready_props _ _ _ I H) as (I' & S & _). split; [exact I'|apply same_hs_mono, S].
  - split; [exact I|apply mono_refl].
  - destruct (rn_advance_ok _ _ _ H) as (r & E & ->). destruct I as [IS IM].
    destruct (step_all_props _ _ _ IS E) as [M X].
    split; [split; [constructor|eapply ext_maa; eassumption]|exact M].
Qed.

End WithStorage.

(* one input of a running incarnation: a storage write, which leaves the RawNode alone, or a call
   of its API *)
Lemma node_step_running n i d n' out rn :
  n_rn n = Some rn -> same_incarnation i = true -> node_step n i d = Ok (n', out) ->
  (storage_input i = true /\ n_rn n' = Some rn) \/
  (exists rn', n_rn n' = Some rn' /\ rn_call (n_st n) i out (with_draws rn d) rn').
Proof.
  intros Hrn SI H.
  destruct (node_step_cases _ _ _ _ _ H)
    as [[[[N _]|[S _]] E]|[[-> _]|[(c & rn1 & -> & _)|(rn0 & rn' & E0 & E' & _ & C)]]]; try discriminate SI.
  - congruence.
  - left. rewrite E. auto.
  - right. rewrite Hrn in E0. injection E0 as <-. eauto.
Qed.

(* what every input of an incarnation keeps holds along every history of it *)
Lemma node_run_inv (I : rawnode -> Prop) (P : ninput -> Prop) :
  (forall n i d n' out rn, n_rn n = Some rn -> I rn -> P i -> node_step n i d = Ok (n', out) ->
     exists rn', n_rn n' = Some rn' /\ I rn') ->
  forall ins n n' rn, n_rn n = Some rn -> I rn -> Forall (fun id => P (fst id)) ins ->
    node_run n ins = Ok n' -> exists rn', n_rn n' = Some rn' /\ I rn'.
Proof.
  intros K. induction ins as [|[i d] ins IH]; intros n n' rn Hrn Irn F H; cbn in H.
  - injection H as <-. eauto.
  - inversion F as [|? ? Pi F']; subst. apply bind_ok in H. destruct H as ([n1 o1] & E & H).
    destruct (K _ _ _ _ _ _ Hrn Irn Pi E) as (rn1 & H1 & I1). exact (IH _ _ _ H1 I1 F' H).
Qed.

Theorem node_step_mono n i d n' out rn :
  n_rn n = Some rn -> inv_rn rn -> same_incarnation i = true -> wf_input i ->
  node_step n i d = Ok (n', out) ->
  exists rn', n_rn n' = Some rn' /\ inv_rn rn' /\
              hs_le (hard_state (rn_raft rn)) (hard_state (rn_raft rn')).
Proof.
  intros Hrn I SI W H.
  destruct (node_step_running _ _ _ _ _ _ Hrn SI H) as [[_ E]|(rn' & E' & C)].
  - exists rn. split; [exact E|]. split; [exact I|apply hs_le_refl].
  - destruct (rn_call_props _ _ _ _ _ (with_draws_inv rn d I) W C) as [I' M].
    exists rn'. split; [exact E'|]. split; [exact I'|exact M].
Qed.

(* every node-local history within one incarnation *)
Theorem node_run_mono ins : forall n n' rn,
  n_rn n = Some rn -> inv_rn rn ->
  Forall (fun id => same_incarnation (fst id) = true /\ wf_input (fst id)) ins ->
  node_run n ins = Ok n' ->
  exists rn', n_rn n' = Some rn' /\ inv_rn rn' /\
              hs_le (hard_state (rn_raft rn)) (hard_state (rn_raft rn')).
Proof.
  intros n n' rn Hrn I.
  apply (node_run_inv (fun x => inv_rn x /\ hs_le (hard_state (rn_raft rn)) (hard_state (rn_raft x)))
                      (fun i => same_incarnation i = true /\ wf_input i)) with (rn := rn);
    [|exact Hrn|split; [exact I|apply hs_le_refl]].
  intros m i d m' out x Hx [Ix L] [SI W] H.
  destruct (node_step_mono _ _ _ _ _ _ Hx Ix SI W H) as (x' & Hx' & Ix' & L').
  exists x'. split; [exact Hx'|]. split; [exact Ix'|eapply hs_le_trans; eassumption].
Qed.

(* A new incarnation starts from exactly the hard state found in storage (and from term 0,
   no vote, commit = the storage's compaction point, when storage has none). *)
Theorem new_rawnode_hs st c d rn :
  new_rawnode st c d = Ok rn ->
  inv_rn rn /\
  match ms_hardstate st with
  | Some h => if is_empty_hs h
              then hard_state (rn_raft rn) = mkHS 0 0 (ms_first_index st - 1)
              else hard_state (rn_raft rn) = h
  | None => hard_state (rn_raft rn) = mkHS 0 0 (ms_first_index st - 1)
  end.
Proof.
  unfold new_rawnode. intros H. apply bind_ok in H. destruct H as (r & E & H). injection H as <-.
  unfold inv_rn. cbn [rn_raft rn_steps_on_advance].
  destruct (new_raft_ok _ _ _ _ E) as (mu & mc & mb & cfg & pm & lrn & h & l & _ & _ & Hh & L & F).
  (* becoming follower at the own term keeps the vote *)
  destruct (become_follower_mono _ _ _ _ _ (N.le_refl _) F) as (_ & T & V & C).
  assert (HS : hard_state r = h).
  { unfold hard_state. rewrite T, (V eq_refl), C. cbn [new_raft_state r_vote r_log].
    destruct L as [[_ ->]|L]; [|apply l_applied_to_committed in L; rewrite L]; destruct h; reflexivity. }
  split; [split; [constructor|exact (ext_maa _ _ (become_follower_ext _ _ _ _ _ F) (Forall_nil _))]|].
  rewrite HS, Hh. destruct (ms_hardstate st) as [h0|]; [destruct (is_empty_hs h0)|]; reflexivity.
Qed.
