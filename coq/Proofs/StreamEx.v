(* StreamEx.v: a concrete history of one node that meets the hypotheses of the apply-stream
   theorems (Proofs/StreamProofs.v), so that they are not vacuous: a single voter started from a
   snapshot at index 1 elects itself, commits its empty entry (index 2) and a proposal (index 3),
   and hands them out in two batches. *)
From Coq Require Import List NArith Bool Lia.
From RaftV Require Import Base Types Quorum Progress Tracker Storage Log Raft RawNode Tactics
     RaftMono RaftRouting NodeProps LogProofs CursorProofs StreamProofs.
Import ListNotations.
Open Scope N_scope.

Definition ex_cfg : rconfig :=
  mkCfg 1 10 1 0 false 1000 0 0 256 0 false false ReadOnlySafe false false false.

Definition ex_boot : list (ninput * list N) :=
  [ (IStApplySnapshot (mkSnapshot 1 1 (mkConfState [1] [] [] [] false) []), []);
    (INew ex_cfg, [3]) ].

Definition ex_n0 : res nstate := Eval vm_compute in node_run init_node ex_boot.

(* the application's side of one Ready/Advance cycle: persist what the Ready asks for, then Advance *)
Definition cycle (n : res nstate) : list (ninput * list N) :=
  match n with
  | Ok n =>
      match node_step n IReady [] with
      | Ok (_, OReady rd) =>
          [(IReady, [])] ++
          (match rd_entries rd with [] => [] | es => [(IStAppend es, [])] end) ++
          (match rd_hard rd with Some h => [(IStSetHardState h, [])] | None => [] end) ++
          [(IAdvance, [5])]
      | _ => []
      end
  | _ => []
  end.

Definition run (n : res nstate) (ins : list (ninput * list N)) : res nstate :=
  match n with Ok n => node_run n ins | Panic p => Panic p end.

Definition ins1 : list (ninput * list N) := [(ICampaign, [4])].
Definition n1 := Eval vm_compute in run ex_n0 ins1.
Definition ins2 := Eval vm_compute in cycle n1.      (* term and vote persisted; becomes leader *)
Definition n2 := Eval vm_compute in run n1 ins2.
Definition ins3 := Eval vm_compute in cycle n2.      (* the empty entry (index 2) persisted, committed *)
Definition n3 := Eval vm_compute in run n2 ins3.
Definition ins4 := Eval vm_compute in cycle n3.      (* hands out [2] *)
Definition n4 := Eval vm_compute in run n3 ins4.
Definition ins5 : list (ninput * list N) := [(IPropose [7], [])].
Definition n5 := Eval vm_compute in run n4 ins5.
Definition ins6 := Eval vm_compute in cycle n5.      (* index 3 persisted, committed *)
Definition n6 := Eval vm_compute in run n5 ins6.
Definition ins7 := Eval vm_compute in cycle n6.      (* hands out [3] *)

Definition ex_ins := Eval vm_compute in ins1 ++ ins2 ++ ins3 ++ ins4 ++ ins5 ++ ins6 ++ ins7.

Definition ex_trace :=
  Eval vm_compute in match ex_n0 with Ok n => node_trace n ex_ins | Panic p => Panic p end.

Definition batches_of (t : res (list tstep * nstate)) : list (list N) :=
  match t with
  | Ok (tr, _) => filter (fun l => match l with [] => false | _ => true end)
                         (map (fun x => map e_index (batch_of x)) tr)
  | _ => []
  end.

Definition ex_start : nstate := Eval vm_compute in match ex_n0 with Ok n => n | _ => init_node end.
Definition ex_tr : list tstep := Eval vm_compute in match ex_trace with Ok (tr, _) => tr | _ => [] end.
Definition ex_end : nstate := Eval vm_compute in match ex_trace with Ok (_, n) => n | _ => init_node end.

Lemma ex_running : running_ok ex_start.
Proof. eexists. split; [reflexivity|]. unfold rcur_ok, cur_ok. cbn. lia. Qed.

Lemma ex_nrun : nrun ex_start ex_tr ex_end.
Proof.
  apply (node_trace_nrun ex_ins).
  - vm_compute. reflexivity.
  - repeat constructor.
  - unfold ex_tr.
    repeat (apply Forall_cons; [|]); try apply Forall_nil.
    all: unfold ready_pre_at; intros E; try discriminate E; intros rn Hrn; cbn in Hrn; inversion Hrn; subst rn;
         unfold ready_pre, ms_wf, a_wf, u_wf; cbn; unfold two64; repeat split; lia.
Qed.

Example apply_stream_nonvacuous :
  exists n tr n', running_ok n /\ nrun n tr n' /\ batches_of (Ok (tr, n')) = [[2]; [3]].
Proof.
  exists ex_start, ex_tr, ex_end. split; [exact ex_running|]. split; [exact ex_nrun|].
  vm_compute. reflexivity.
Qed.
