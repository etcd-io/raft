(* QuorumProofs.v: proofs about Model/Quorum.v (C12, and the quorum half of C19). *)
From Coq Require Import List NArith Bool Arith Lia Sorting.Mergesort Sorting.Sorted
     Sorting.Permutation ZArith ZifyBool ZifyNat ZifyN.
From RaftV Require Import ListFacts Base Quorum.
Import ListNotations.

Ltac Zify.zify_post_hook ::= Z.div_mod_to_equations.

Definition count_ge (i : N) (l : list N) : nat :=
  length (filter (fun x => N.leb i x) l).

Lemma count_ge_le_length i l : (count_ge i l <= length l)%nat.
Proof.
  unfold count_ge. induction l as [|x l IH]; simpl; [lia|].
  destruct (N.leb i x); simpl; lia.
Qed.

Lemma count_ge_all i l : Forall (fun x => (i <= x)%N) l -> count_ge i l = length l.
Proof.
  unfold count_ge. induction 1 as [|x l Hx Hl IH]; simpl; [reflexivity|].
  destruct (N.leb_spec i x); simpl; lia.
Qed.

Lemma count_ge_perm i l l' : Permutation l l' -> count_ge i l = count_ge i l'.
Proof. apply filter_length_perm. Qed.

Lemma filter_witness {A} (f : A -> bool) l :
  (0 < length (filter f l))%nat -> exists x, In x l /\ f x = true.
Proof.
  destruct (filter f l) as [|x xs] eqn:E; cbn; [lia|]. intros _.
  exists x. apply filter_In. rewrite E. left. reflexivity.
Qed.

Definition leN (a b : N) : Prop := is_true (N.leb a b).

Lemma sortN_sorted l : StronglySorted leN (sortN l).
Proof.
  unfold sortN. apply Sorted_StronglySorted.
  - intros a b c Hab Hbc. unfold leN, is_true in *. lia.
  - apply NSort.Sorted_sort.
Qed.

Lemma sortN_perm l : Permutation l (sortN l).
Proof. apply NSort.Permuted_sort. Qed.

Lemma sortN_length l : length (sortN l) = length l.
Proof. symmetry. apply Permutation_length, sortN_perm. Qed.

Lemma sorted_count_ge (l : list N) : StronglySorted leN l -> forall p, (p < length l)%nat ->
  (length l - p <= count_ge (nth p l 0%N) l)%nat /\
  forall i, (nth p l 0%N < i)%N -> (count_ge i l < length l - p)%nat.
Proof.
  induction 1 as [|a l Hs IH Ha]; intros p Hp; cbn [length] in *; [lia|].
  assert (C : forall i, count_ge i (a :: l) = ((if N.leb i a then 1 else 0) + count_ge i l)%nat).
  { intros i. unfold count_ge. cbn [filter]. destruct (N.leb i a); reflexivity. }
  rewrite Forall_forall in Ha. unfold leN, is_true in Ha.
  destruct p as [|p]; cbn [nth].
  - split.
    + rewrite C, count_ge_all; [rewrite N.leb_refl; lia|]. apply Forall_forall. intros y Hy. apply Ha in Hy. lia.
    + intros i Hi. rewrite C. pose proof (count_ge_le_length i l). destruct (N.leb_spec i a); lia.
  - assert (Hp' : (p < length l)%nat) by lia.
    destruct (IH p Hp') as [H1 H2]. specialize (Ha _ (nth_In l 0%N Hp')).
    split; [rewrite C; lia|]. intros i Hi. rewrite C. specialize (H2 i Hi). destruct (N.leb_spec i a); lia.
Qed.

(* The element at position n-(n/2+1) of a sorted list is acknowledged by a strict
   majority, and nothing larger is. *)
Lemma sorted_majority_pos (l : list N) n :
  StronglySorted leN l -> length l = n -> (0 < n)%nat ->
  let c := nth (n - (n / 2 + 1)) l 0%N in
  (2 * count_ge c l > n)%nat /\ forall i, (2 * count_ge i l > n)%nat -> (i <= c)%N.
Proof.
  intros Hs <- Hn c.
  destruct (sorted_count_ge l Hs (length l - (length l / 2 + 1))%nat ltac:(lia)) as [H1 H2]. fold c in H1, H2.
  split; [lia|]. intros i Hi. destruct (N.le_gt_cases i c) as [Hle|Hgt]; [exact Hle|].
  specialize (H2 i Hgt). lia.
Qed.

Definition ackers (vs : list N) (ack : list (N * N)) (i : N) : nat :=
  length (filter (fun v => N.leb i (ack_or_zero ack v)) vs).

Definition majority_acked (vs : list N) (ack : list (N * N)) (i : N) : Prop :=
  (2 * ackers vs ack i > length vs)%nat.

Lemma ackers_count vs ack i : ackers vs ack i = count_ge i (map (ack_or_zero ack) vs).
Proof.
  unfold ackers, count_ge. induction vs as [|v vs IH]; simpl; [reflexivity|].
  destruct (N.leb i (ack_or_zero ack v)); simpl; lia.
Qed.

Theorem majority_committed_greatest vs ack :
  vs <> [] ->
  majority_acked vs ack (majority_committed vs ack) /\
  forall i, majority_acked vs ack i -> (i <= majority_committed vs ack)%N.
Proof.
  intros Hne. unfold majority_acked.
  set (l := map (ack_or_zero ack) vs).
  assert (T : forall i, ackers vs ack i = count_ge i (sortN l)).
  { intros i. rewrite ackers_count. apply count_ge_perm, sortN_perm. }
  assert (Hlen : length (sortN l) = length vs) by (rewrite sortN_length; apply map_length).
  destruct (sorted_majority_pos (sortN l) (length vs) (sortN_sorted l) Hlen) as [H1 H2].
  { destruct vs; [congruence|cbn; lia]. }
  replace (majority_committed vs ack) with (nth (length vs - (length vs / 2 + 1)) (sortN l) 0%N)
    by (destruct vs; [congruence|reflexivity]).
  split; [rewrite T; exact H1|]. intros i Hi. apply H2. rewrite <- T. exact Hi.
Qed.

Theorem majority_committed_empty ack : majority_committed [] ack = maxU64.
Proof. reflexivity. Qed.

Lemma ackers_perm vs vs' ack i : Permutation vs vs' -> ackers vs ack i = ackers vs' ack i.
Proof.
  intros HP. rewrite !ackers_count. apply count_ge_perm. apply Permutation_map. exact HP.
Qed.

Theorem majority_committed_perm vs vs' ack :
  Permutation vs vs' -> majority_committed vs ack = majority_committed vs' ack.
Proof.
  intros HP. destruct vs as [|v vs0].
  - apply Permutation_nil in HP. subst. reflexivity.
  - assert (Hne : v :: vs0 <> []) by congruence.
    assert (Hne' : vs' <> []).
    { intro H; subst. apply Permutation_sym, Permutation_nil in HP. congruence. }
    (* both sides are the greatest index acknowledged by a majority, of the same predicate *)
    assert (T : forall i, majority_acked (v :: vs0) ack i <-> majority_acked vs' ack i).
    { intros i. unfold majority_acked. rewrite (ackers_perm _ _ _ _ HP), (Permutation_length HP). reflexivity. }
    destruct (majority_committed_greatest (v :: vs0) ack Hne) as [A1 A2].
    destruct (majority_committed_greatest vs' ack Hne') as [B1 B2].
    apply N.le_antisymm; [apply B2, T, A1|apply A2, T, B1].
Qed.

Theorem joint_committed_min c0 c1 ack :
  joint_committed c0 c1 ack = N.min (majority_committed c0 ack) (majority_committed c1 ack).
Proof.
  unfold joint_committed. destruct (N.ltb_spec (majority_committed c0 ack) (majority_committed c1 ack)); lia.
Qed.

Lemma ack_or_zero_le_max64 ack v :
  Forall (fun kv => (snd kv <= maxU64)%N) ack -> (ack_or_zero ack v <= maxU64)%N.
Proof.
  unfold ack_or_zero. induction 1 as [|[k x] ack Hx Hl IH]; simpl; [unfold maxU64; lia|].
  destruct (N.eqb v k); [exact Hx|exact IH].
Qed.

Lemma majority_committed_le_max64 vs ack :
  Forall (fun kv => (snd kv <= maxU64)%N) ack -> (majority_committed vs ack <= maxU64)%N.
Proof.
  intros Hack. destruct vs as [|v vs0]; [simpl; lia|].
  destruct (majority_committed_greatest (v :: vs0) ack) as [H1 _]; [discriminate|].
  (* some voter acknowledges it, and every acknowledgement is a uint64 *)
  destruct (filter_witness (fun w => N.leb (majority_committed (v :: vs0) ack) (ack_or_zero ack w)) (v :: vs0))
    as (w & _ & Hw); [unfold majority_acked, ackers in H1; lia|].
  pose proof (ack_or_zero_le_max64 ack w Hack). lia.
Qed.

(* an empty half imposes no constraint (all indexes are uint64 values) *)
Theorem joint_committed_empty_half c0 ack :
  Forall (fun kv => (snd kv <= maxU64)%N) ack ->
  joint_committed c0 [] ack = majority_committed c0 ack /\
  joint_committed [] c0 ack = majority_committed c0 ack.
Proof.
  intros Hack. rewrite !joint_committed_min. simpl.
  pose proof (majority_committed_le_max64 c0 ack Hack). lia.
Qed.

Theorem joint_committed_perm c0 c0' c1 c1' ack :
  Permutation c0 c0' -> Permutation c1 c1' ->
  joint_committed c0 c1 ack = joint_committed c0' c1' ack.
Proof.
  intros H0 H1. unfold joint_committed.
  rewrite (majority_committed_perm _ _ _ H0), (majority_committed_perm _ _ _ H1). reflexivity.
Qed.

Definition yes_majority (vs : list N) (votes : list (N * bool)) : Prop :=
  (2 * count_yes vs votes > length vs)%nat.
Definition majority_impossible (vs : list N) (votes : list (N * bool)) : Prop :=
  (2 * (count_yes vs votes + count_missing vs votes) <= length vs)%nat.

Theorem majority_vote_spec vs votes :
  vs <> [] ->
  (majority_vote vs votes = VoteWon <-> yes_majority vs votes) /\
  (majority_vote vs votes = VoteLost <-> majority_impossible vs votes) /\
  (majority_vote vs votes = VotePending <->
     ~ yes_majority vs votes /\ ~ majority_impossible vs votes).
Proof.
  intros Hne. unfold yes_majority, majority_impossible, majority_vote.
  destruct vs as [|v vs0] eqn:E; [congruence|]. rewrite <- E.
  set (n := length vs). set (y := count_yes vs votes). set (m := count_missing vs votes).
  destruct (Nat.leb_spec (n / 2 + 1) y); [|destruct (Nat.leb_spec (n / 2 + 1) (y + m))];
    repeat split; intros; try congruence; lia.
Qed.

Theorem majority_vote_empty votes : majority_vote [] votes = VoteWon.
Proof. reflexivity. Qed.

Definition half_won vs votes : Prop := vs = [] \/ yes_majority vs votes.
Definition half_lost vs votes : Prop := vs <> [] /\ majority_impossible vs votes.

Lemma majority_vote_won vs votes : majority_vote vs votes = VoteWon <-> half_won vs votes.
Proof.
  unfold half_won. destruct vs as [|v vs0]; [simpl; split; auto|].
  destruct (majority_vote_spec (v :: vs0) votes) as [H _]; [discriminate|]. rewrite H. split; [auto|].
  intros [H0|H0]; [discriminate|exact H0].
Qed.

Lemma majority_vote_lost vs votes : majority_vote vs votes = VoteLost <-> half_lost vs votes.
Proof.
  unfold half_lost. destruct vs as [|v vs0].
  - simpl. split; [discriminate|]. intros [H _]. congruence.
  - destruct (majority_vote_spec (v :: vs0) votes) as [_ [H _]]; [discriminate|]. rewrite H. split; [|tauto].
    split; [discriminate|assumption].
Qed.

Theorem joint_vote_spec c0 c1 votes :
  (joint_vote c0 c1 votes = VoteWon <-> half_won c0 votes /\ half_won c1 votes) /\
  (joint_vote c0 c1 votes = VoteLost <-> half_lost c0 votes \/ half_lost c1 votes) /\
  (joint_vote c0 c1 votes = VotePending <->
     ~ (half_won c0 votes /\ half_won c1 votes) /\ ~ (half_lost c0 votes \/ half_lost c1 votes)).
Proof.
  rewrite <- !majority_vote_won, <- !majority_vote_lost. unfold joint_vote.
  destruct (majority_vote c0 votes), (majority_vote c1 votes); simpl;
    intuition congruence.
Qed.

Theorem majority_vote_perm vs vs' votes :
  Permutation vs vs' -> majority_vote vs votes = majority_vote vs' votes.
Proof.
  intros HP. unfold majority_vote, count_yes, count_missing.
  rewrite (filter_length_perm _ _ _ HP), (filter_length_perm _ _ _ HP), (Permutation_length HP).
  destruct vs as [|v vs0], vs' as [|v' vs0']; try reflexivity.
  - apply Permutation_nil in HP. congruence.
  - apply Permutation_sym, Permutation_nil in HP. congruence.
Qed.

Theorem joint_vote_perm c0 c0' c1 c1' votes :
  Permutation c0 c0' -> Permutation c1 c1' ->
  joint_vote c0 c1 votes = joint_vote c0' c1' votes.
Proof.
  intros H0 H1. unfold joint_vote.
  rewrite (majority_vote_perm _ _ _ H0), (majority_vote_perm _ _ _ H1). reflexivity.
Qed.

Lemma filter_and_length {A} (f g : A -> bool) (l : list A) :
  (length (filter f l) + length (filter g l) <=
   length l + length (filter (fun x => f x && g x) l))%nat.
Proof.
  induction l as [|x l IH]; simpl; [lia|].
  destruct (f x), (g x); simpl; lia.
Qed.

Theorem majorities_intersect {A} (f g : A -> bool) (l : list A) :
  (2 * length (filter f l) > length l)%nat ->
  (2 * length (filter g l) > length l)%nat ->
  exists x, In x l /\ f x = true /\ g x = true.
Proof.
  intros Hf Hg. pose proof (filter_and_length f g l) as H.
  destruct (filter_witness (fun x => f x && g x) l) as [x [Hin Hfg]]; [lia|].
  exists x. apply andb_true_iff in Hfg. tauto.
Qed.
