(* AppendRefine.v: the follower's append path of the node model (raftLog.maybeAppend: matchTerm,
   findConflict, append / unstable.truncateAndAppend) refines the FollowerAppend rule of
   Spec/LogMatching.v on the logical log (stable storage below the unstable offset, then the
   unstable tail).  Also: the leader's raftLog.append at the end of the log is the LeaderAppend
   rule, raftLog.isUpToDate is the up-to-date test of Spec/Safety.v, and handleAppendEntries
   changes the log only through maybeAppend. *)
From Coq Require Import List NArith Bool Lia Arith.
From RaftV Require Import ListFacts Base Types Storage Log Tactics LogProofs.
Import ListNotations.
Open Scope N_scope.


Definition lview (st : memstorage) (l : raftlog) : abslog :=
  let u := l_unstable l in
  match u_snapshot u with
  | Some s => mkAbs (s_index s) (s_term s) (u_entries u)
  | None => mkAbs (ms_dummy_index st) (ms_dummy_term st)
                  (firstn (N.to_nat (u_offset u - ms_dummy_index st - 1)) (ms_ents st) ++ u_entries u)
  end.

Definition l_wf (st : memstorage) (l : raftlog) : Prop :=
  ms_wf st /\ u_wf (l_unstable l) /\
  match u_snapshot (l_unstable l) with
  | Some s => u_offset (l_unstable l) = s_index s + 1
  | None => ms_dummy_index st + 1 <= u_offset (l_unstable l) <= ms_last_index st + 1 /\
            (u_entries (l_unstable l) = [] -> u_offset (l_unstable l) = ms_last_index st + 1)
  end.

Lemma lview_cases st l : l_wf st l ->
  (exists s, u_snapshot (l_unstable l) = Some s /\ u_offset (l_unstable l) = s_index s + 1 /\
             lview st l = mkAbs (s_index s) (s_term s) (u_entries (l_unstable l))) \/
  (u_snapshot (l_unstable l) = None /\
   ms_dummy_index st < u_offset (l_unstable l) <= ms_last_index st + 1 /\
   lview st l = a_splice (abs_ms st) (u_offset (l_unstable l)) (u_entries (l_unstable l))).
Proof.
  unfold l_wf, lview. intros (_ & _ & B). destruct (u_snapshot (l_unstable l)) as [s|]; [left; exists s; auto|right].
  repeat split; lia.
Qed.

Lemma lview_wf st l : l_wf st l -> a_wf (lview st l).
Proof.
  intros W. pose proof W as (M & (C & _) & _).
  destruct (lview_cases st l W) as [(s & _ & O & ->)|(_ & R & ->)].
  - unfold a_wf. cbn [a_base a_ents]. rewrite <- O. exact C.
  - apply a_splice_wf; assumption.
Qed.

Lemma lview_bounds st l : l_wf st l ->
  a_base (lview st l) < u_offset (l_unstable l) /\
  a_last (lview st l) + 1 = u_offset (l_unstable l) + nlen (u_entries (l_unstable l)).
Proof.
  intros W. destruct (lview_cases st l W) as [(s & _ & O & ->)|(_ & R & ->)].
  - unfold a_last. cbn [a_base a_ents]. lia.
  - rewrite a_splice_last by exact R. cbn [a_splice a_base abs_ms]. lia.
Qed.

Lemma lview_last st l : l_wf st l -> l_last_index st l = a_last (lview st l).
Proof.
  intros W. pose proof (lview_bounds st l W) as [_ L]. destruct W as (_ & _ & B).
  unfold l_last_index, u_maybe_last_index.
  destruct (u_entries (l_unstable l)) eqn:E; [|rewrite nlen_cons in *; lia]. change (nlen []) with 0 in L.
  destruct (u_snapshot (l_unstable l)); [lia|]. destruct B as [_ B]. specialize (B eq_refl). lia.
Qed.

Lemma lview_first st l : l_wf st l -> l_first_index st l = a_first (lview st l).
Proof.
  intros W. unfold l_first_index, u_maybe_first_index.
  destruct (lview_cases st l W) as [(s & -> & _ & ->)|(-> & _ & ->)]; reflexivity.
Qed.

Lemma lview_at_unstable st l i : l_wf st l -> u_offset (l_unstable l) <= i ->
  a_at (lview st l) i = nth_error (u_entries (l_unstable l)) (N.to_nat (i - u_offset (l_unstable l))).
Proof.
  intros W L. destruct (lview_cases st l W) as [(s & _ & O & ->)|(_ & R & ->)].
  - rewrite a_at_nth by (cbn [a_base]; lia). cbn [a_base a_ents]. f_equal. lia.
  - apply a_splice_at_above; assumption.
Qed.

Lemma lview_at_stable st l i : l_wf st l -> u_snapshot (l_unstable l) = None -> i < u_offset (l_unstable l) ->
  a_at (lview st l) i = a_at (abs_ms st) i.
Proof.
  intros W SN L. destruct (lview_cases st l W) as [(s & SS & _)|(_ & R & ->)]; [congruence|].
  apply a_splice_at_below; assumption.
Qed.


Lemma l_term_view st l i : l_wf st l ->
  match a_term (lview st l) i with
  | Some t => l_term st l i = (t, ENone)
  | None => snd (l_term st l i) <> ENone
  end.
Proof.
  intros W. pose proof (lview_bounds st l W) as [BO LA]. pose proof (lview_at_unstable st l i W) as AU.
  unfold l_term. rewrite (u_maybe_term_spec _ i (proj1 (proj2 W))), (lview_last st l W), (lview_first st l W).
  unfold a_first. destruct (N.ltb_spec i (u_offset (l_unstable l))) as [LT|GE].
  - 
    destruct (lview_cases st l W) as [(s & -> & O & V)|(-> & R & V)]; rewrite V in *; cbn [a_splice a_base abs_ms] in *.
    + destruct (N.eqb_spec (s_index s) i) as [<-|NE]; [rewrite a_term_base by reflexivity; reflexivity|].
      rewrite a_term_below by (cbn [a_base]; lia).
      destruct (N.ltb_spec (i + 1) (s_index s + 1)); [cbn; discriminate|lia].
    + rewrite a_splice_term_below by assumption.
      destruct (N.ltb_spec (i + 1) (ms_dummy_index st + 1)); [rewrite a_term_below by (cbn [abs_ms a_base]; lia); cbn; discriminate|].
      destruct (N.ltb_spec (a_last (a_splice (abs_ms st) (u_offset (l_unstable l)) (u_entries (l_unstable l)))) i); [lia|].
      pose proof (ms_term_refines st i) as MT. rewrite <- (proj2 (ms_first_last st)) in MT. cbn [abs_ms a_base] in MT.
      destruct (ms_term st i) as [t []]; try contradiction; try lia. rewrite (proj2 MT). reflexivity.
  - rewrite a_term_at by lia. rewrite AU by exact GE.
    destruct (nth_error (u_entries (l_unstable l)) (N.to_nat (i - u_offset (l_unstable l)))) eqn:NE; [reflexivity|].
    apply nth_error_nlen_None in NE.
    destruct (N.ltb_spec (i + 1) (a_base (lview st l) + 1)); [lia|].
    destruct (N.ltb_spec (a_last (lview st l)) i); [cbn; discriminate|lia].
Qed.

Definition a_match (a : abslog) (i t : N) : bool :=
  match a_term a i with Some t' => N.eqb t' t | None => false end.

Lemma a_match_range a i t : a_match a i t = true -> a_base a <= i <= a_last a.
Proof. unfold a_match. destruct (a_term a i) eqn:AT; [intros _; exact (a_term_some _ _ _ AT)|discriminate]. Qed.

Lemma l_match_term_view st l i t : l_wf st l -> l_match_term st l i t = a_match (lview st l) i t.
Proof.
  intros W. pose proof (l_term_view st l i W) as T. unfold l_match_term, a_match.
  destruct (a_term (lview st l) i); [rewrite T; reflexivity|].
  destruct (l_term st l i) as [t2 []]; cbn in T; congruence.
Qed.

Fixpoint a_find_conflict (a : abslog) (ents : list entry) : N :=
  match ents with
  | [] => 0
  | e :: rest => if a_match a (e_index e) (e_term e) then a_find_conflict a rest else e_index e
  end.

Lemma l_find_conflict_view st l ents : l_wf st l -> l_find_conflict st l ents = a_find_conflict (lview st l) ents.
Proof.
  intros W. induction ents as [|e rest IH]; cbn; [reflexivity|].
  rewrite (l_match_term_view st l _ _ W), IH. reflexivity.
Qed.

Lemma a_find_conflict_spec a : forall ents prev pt, contig (prev + 1) ents -> a_match a prev pt = true ->
  (a_find_conflict a ents = 0 /\ prev + nlen ents <= a_last a /\
   forall k e, nth_error ents k = Some e -> a_match a (e_index e) (e_term e) = true) \/
  (exists k e t, skipn k ents = e :: t /\ a_find_conflict a ents = e_index e /\ e_index e = prev + 1 + N.of_nat k /\
                 a_base a < e_index e <= a_last a + 1 /\
                 forall j e', (j < k)%nat -> nth_error ents j = Some e' -> a_match a (e_index e') (e_term e') = true).
Proof.
  induction ents as [|e rest IH]; intros prev pt C PM; cbn [a_find_conflict]; pose proof (a_match_range _ _ _ PM) as PR.
  - left. change (nlen []) with 0. repeat split; [lia|]. intros [|k] e H; discriminate.
  - destruct C as [EI C]. destruct (a_match a (e_index e) (e_term e)) eqn:M.
    + rewrite <- EI in C. rewrite nlen_cons.
      destruct (IH _ _ C M) as [(Z & L & A)|(k & e' & t & SK & F & E2 & R & B)].
      * left. repeat split; [exact Z|lia|]. intros [|k] e' H; cbn in H; [inversion H; subst; exact M|exact (A _ _ H)].
      * right. exists (S k), e', t. repeat split; try assumption; try lia.
        intros [|j] e2 LT H; cbn in H; [inversion H; subst; exact M|apply (B j); [lia|exact H]].
    + right. exists 0%nat, e, rest. repeat split; try reflexivity; lia.
Qed.


Lemma firstn_firstn_min {A} (l : list A) a b : firstn a (firstn b l) = firstn (Nat.min a b) l.
Proof. apply firstn_firstn. Qed.

Lemma l_append_view st l l' e0 rest :
  l_wf st l -> contig (e_index e0) (e0 :: rest) ->
  a_base (lview st l) < e_index e0 <= a_last (lview st l) + 1 ->
  l_append st l (e0 :: rest) = Ok l' ->
  l_wf st l' /\ lview st l' = a_truncate_append (lview st l) (e0 :: rest) /\ l_committed l' = l_committed l.
Proof.
  intros W C R H. pose proof (lview_bounds st l W) as [BO LA]. pose proof W as (M & U & B).
  unfold l_append in H.
  destruct (N.ltb_spec (sub64 (e_index e0) 1) (l_committed l)); [discriminate|].
  destruct (u_truncate_and_append (l_unstable l) (e0 :: rest)) as [u'|] eqn:TA; cbn [bind] in H; [|discriminate].
  inversion H; subst l'; clear H.
  assert (SI : match u_snapshot (l_unstable l) with Some s => s_index s < e_index e0 | None => True end).
  { destruct (lview_cases st l W) as [(s & -> & _ & V)|(-> & _)]; [rewrite V in R; cbn [a_base] in R; lia|exact I]. }
  destruct (u_truncate_and_append_wf _ _ _ _ _ U eq_refl C SI ltac:(lia) TA) as (UW' & S' & _ & O' & E' & _).
  assert (W' : l_wf st (l_with_unstable l u')).
  { refine (conj M (conj UW' _)). cbn [l_with_unstable l_unstable]. rewrite S', O', E'.
    destruct (lview_cases st l W) as [(s & -> & O & V)|(-> & RS & V)]; rewrite V in R; cbn [a_splice a_base abs_ms] in *; [lia|].
    split; [lia|]. intros X. apply app_eq_nil in X. destruct X as [_ X]. discriminate. }
  split; [exact W'|split; [|reflexivity]].
  destruct (lview_cases st l W) as [(s & SN & O & V)|(SN & RS & V)];
    (destruct (lview_cases st _ W') as [(s2 & SN2 & _ & ->)|(SN2 & _ & ->)]; cbn [l_with_unstable l_unstable] in *;
     rewrite S', SN in SN2; inversion SN2); rewrite V, E', ?O' in *.
  - subst s2. unfold a_truncate_append. cbn [a_base a_base_term a_ents]. do 3 f_equal. lia.
  - symmetry. apply (a_splice_splice (abs_ms st) _ _ RS).
Qed.


Definition a_maybe_append (a : abslog) (prevIndex prevTerm : N) (ents : list entry) : option abslog :=
  if a_match a prevIndex prevTerm then
    let ci := a_find_conflict a ents in
    Some (if N.eqb ci 0 then a else a_truncate_append a (skipn (N.to_nat (ci - (prevIndex + 1))) ents))
  else None.

Lemma l_commit_to_unstable st l c l' : l_commit_to st l c = Ok l' -> l_unstable l' = l_unstable l.
Proof.
  unfold l_commit_to. destruct (l_committed l <? c); [|intros H; inversion H; reflexivity].
  destruct (l_last_index st l <? c); [discriminate|]. intros H; inversion H; reflexivity.
Qed.

Lemma l_wf_unstable st l l' : l_unstable l' = l_unstable l -> l_wf st l -> l_wf st l'.
Proof. unfold l_wf. intros E. rewrite E. auto. Qed.

Lemma lview_unstable st l l' : l_unstable l' = l_unstable l -> lview st l' = lview st l.
Proof. unfold lview. intros E. rewrite E. reflexivity. Qed.

Theorem l_maybe_append_view st l prev pt ents c l' r :
  l_wf st l -> contig (prev + 1) ents -> a_base (lview st l) <= l_committed l ->
  l_maybe_append st l prev pt ents c = Ok (l', r) ->
  l_wf st l' /\
  match a_maybe_append (lview st l) prev pt ents with
  | Some a' => lview st l' = a' /\ r = Some (prev + nlen ents)
  | None => l' = l /\ r = None
  end.
Proof.
  intros W C BC H. unfold l_maybe_append in H. unfold a_maybe_append.
  rewrite (l_match_term_view st l _ _ W), (l_find_conflict_view st l _ W) in H.
  destruct (a_match (lview st l) prev pt) eqn:PM; cbn [negb] in H.
  2:{ inversion H; subst. split; [exact W|split; reflexivity]. }
  destruct (a_find_conflict_spec (lview st l) ents prev pt C PM) as [(Z & _)|(k & e & t & SK & F & EI & R & _)]; rewrite ?Z, ?F in *; cbn [N.eqb] in *.
  - cbn [bind] in H. destruct (l_commit_to st l (N.min c (prev + nlen ents))) as [l2|] eqn:CT; cbn [bind] in H; [|discriminate].
    inversion H; subst l' r. pose proof (l_commit_to_unstable _ _ _ _ CT) as EU.
    split; [exact (l_wf_unstable st l l2 EU W)|]. split; [exact (lview_unstable st l l2 EU)|reflexivity].
  - destruct (N.eqb_spec (e_index e) 0) as [|_]; [lia|].
    destruct (N.leb_spec (e_index e) (l_committed l)) as [LE|GT]; [discriminate|].
    destruct (N.ltb_spec (nlen ents) (sub64 (e_index e) (prev + 1))) as [X|X]; [discriminate|].
    rewrite ndrop_skipn in H. replace (N.to_nat (e_index e - (prev + 1))) with k in * by lia. rewrite SK in *.
    destruct (l_append st l (e :: t)) as [l1|] eqn:AP; cbn [bind] in H; [|discriminate].
    destruct (l_commit_to st l1 (N.min c (prev + nlen ents))) as [l2|] eqn:CT; cbn [bind] in H; [|discriminate].
    inversion H; subst l' r. pose proof (l_commit_to_unstable _ _ _ _ CT) as EU.
    pose proof (contig_skipn _ _ k C) as CK. rewrite SK, <- EI in CK.
    destruct (l_append_view st l l1 e t W CK R AP) as (W1 & V1 & _).
    split; [exact (l_wf_unstable st l1 l2 EU W1)|]. split; [|reflexivity].
    rewrite (lview_unstable st l1 l2 EU). exact V1.
Qed.


Lemma a_match_splice_below a i es j t :
  a_base a < i <= a_last a + 1 -> j < i -> a_match (a_splice a i es) j t = a_match a j t.
Proof. intros R L. unfold a_match. rewrite a_splice_term_below by assumption. reflexivity. Qed.

Lemma a_match_spliced a i es k e :
  contig i es -> a_base a < i <= a_last a + 1 ->
  nth_error es k = Some e -> a_match (a_splice a i es) (e_index e) (e_term e) = true.
Proof.
  intros C R NK. pose proof (contig_nth _ _ _ _ C NK) as EI.
  unfold a_match. rewrite a_term_at by (cbn [a_splice a_base]; lia). rewrite a_splice_at_above by (try exact R; lia).
  replace (N.to_nat (e_index e - i)) with k by lia. rewrite NK. apply N.eqb_refl.
Qed.

(* after an accepted maybe-append the log holds every entry of the message at its index with its
   term, and reaches at least to the last of them: what the MsgAppResp index promises *)
Theorem a_maybe_append_holds a prev pt ents a' :
  a_wf a -> contig (prev + 1) ents -> a_base a <= prev ->
  a_maybe_append a prev pt ents = Some a' ->
  (forall k e, nth_error ents k = Some e -> a_match a' (e_index e) (e_term e) = true) /\
  prev + nlen ents <= a_last a' /\ a_match a' prev pt = true.
Proof.
  intros W C BP H. unfold a_maybe_append in H.
  destruct (a_match a prev pt) eqn:PM; [|discriminate].
  destruct (a_find_conflict_spec a ents prev pt C PM) as [(Z & L & ALL)|(k & e & t & SK & F & EI & R & BEF)]; rewrite ?Z, ?F in H.
  - inversion H; subst a'. auto.
  - destruct (N.eqb_spec (e_index e) 0); [lia|].
    replace (N.to_nat (e_index e - (prev + 1))) with k in H by lia. rewrite SK in H.
    rewrite a_truncate_append_splice in H. replace a' with (a_splice a (e_index e) (e :: t)) by congruence. clear H.
    pose proof (contig_skipn _ _ k C) as CK. rewrite SK, <- EI in CK.
    split; [|split].
    + intros j ej NJ. destruct (Nat.lt_ge_cases j k) as [LT|GE].
      * pose proof (contig_nth _ _ _ _ C NJ). rewrite a_match_splice_below by (try exact R; lia). exact (BEF j ej LT NJ).
      * apply (a_match_spliced a _ _ (j - k)); try assumption.
        rewrite <- SK, nth_error_skipn. replace (k + (j - k))%nat with j by lia. exact NJ.
    + rewrite a_splice_last by exact R.
      rewrite <- SK, nlen_skipn. assert (nlen (skipn k ents) = nlen (e :: t)) by (rewrite SK; reflexivity).
      rewrite nlen_skipn, nlen_cons in *. lia.
    + rewrite a_match_splice_below by (try exact R; lia). exact PM.
Qed.


From RaftV Require LogMatching.

Section ToProtocol.
Variable pay : entry -> N.     (* any naming of payloads (type and data) *)

Definition absent (e : entry) : LogMatching.aent := (e_term e, pay e).
Definition absl (a : abslog) : list LogMatching.aent := map absent (a_ents a).

Lemma a_match_pos a p t : a_base a = 0 ->
  a_match a (N.of_nat p + 1) t =
  match nth_error (absl a) p with Some x => N.eqb (fst x) t | None => false end.
Proof.
  intros B. unfold a_match, absl. rewrite a_term_at, a_at_nth by lia. rewrite B.
  replace (N.to_nat (N.of_nat p + 1 - 0 - 1)) with p by lia.
  rewrite nth_error_map. destruct (nth_error (a_ents a) p); reflexivity.
Qed.

Lemma nth_error_skipn_cons {A} (l : list A) k e : nth_error l k = Some e -> skipn k l = e :: skipn (S k) l.
Proof.
  intros H. apply skipn_nth_error_cons in H as [t H]. rewrite H. f_equal.
  change (S k) with (1 + k)%nat. rewrite <- skipn_skipn, H. reflexivity.
Qed.

Lemma find_conflict_pos a : a_base a = 0 -> forall ents p, contig (N.of_nat p + 1) ents ->
  match LogMatching.first_conflict (skipn p (absl a)) (map absent ents) with
  | None => a_find_conflict a ents = 0
  | Some c => a_find_conflict a ents = N.of_nat p + 1 + N.of_nat c /\ (c < length ents)%nat
  end.
Proof.
  intros B. induction ents as [|e rest IH]; intros p C; cbn [map LogMatching.first_conflict a_find_conflict]; [reflexivity|].
  destruct C as [EI C]. rewrite EI, (a_match_pos a p _ B).
  destruct (nth_error (absl a) p) as [x|] eqn:NX.
  - rewrite (nth_error_skipn_cons _ _ _ NX). cbn [absent fst].
    destruct (N.eqb (fst x) (e_term e)).
    + specialize (IH (S p)). replace (N.of_nat (S p) + 1) with (N.of_nat p + 1 + 1) in IH by lia. specialize (IH C).
      destruct (LogMatching.first_conflict (skipn (S p) (absl a)) (map absent rest)) as [c|].
      * destruct IH as [F L]. split; [lia|cbn; lia].
      * exact IH.
    + split; [lia|cbn; lia].
  - assert (SK : skipn p (absl a) = []) by (apply skipn_all2; apply nth_error_None; exact NX).
    rewrite SK. split; [lia|cbn; lia].
Qed.

Lemma a_match_prev a prev pt : a_base a = 0 -> a_base_term a = 0 ->
  (a_match a prev pt = true <-> LogMatching.prev_term (absl a) (N.to_nat prev) = Some pt).
Proof.
  intros B BT. destruct (N.eq_dec prev 0) as [->|NZ].
  - unfold a_match. rewrite a_term_base, BT by congruence. cbn [LogMatching.prev_term N.to_nat].
    split; [intros H; apply N.eqb_eq in H; congruence|intros H; inversion H; reflexivity].
  - replace prev with (N.of_nat (N.to_nat prev - 1) + 1) at 1 by lia. rewrite (a_match_pos a _ _ B).
    unfold LogMatching.prev_term. destruct (N.to_nat prev) as [|p] eqn:P; [lia|].
    replace (S p - 1)%nat with p by lia.
    destruct (nth_error (absl a) p) as [x|]; [|split; discriminate].
    split; [intros H; apply N.eqb_eq in H; congruence|intros H; inversion H; apply N.eqb_refl].
Qed.

(* The refinement: on a log that was never compacted (base 0), maybeAppend accepts exactly when
   the FollowerAppend rule's (prev index, prev term) match holds, and the new logical log is
   the rule's result. *)
Theorem a_maybe_append_is_follower_rule a prev pt ents :
  a_base a = 0 -> a_base_term a = 0 -> contig (prev + 1) ents ->
  match a_maybe_append a prev pt ents with
  | Some a' =>
      LogMatching.prev_term (absl a) (N.to_nat prev) = Some pt /\
      absl a' = LogMatching.fappend (absl a) (N.to_nat prev) (map absent ents) /\
      a_base a' = 0 /\ a_base_term a' = 0
  | None => LogMatching.prev_term (absl a) (N.to_nat prev) <> Some pt
  end.
Proof.
  intros B BT C. unfold a_maybe_append.
  destruct (a_match a prev pt) eqn:PM.
  2:{ intros H. apply (a_match_prev a prev pt B BT) in H. congruence. }
  split; [apply (a_match_prev a prev pt B BT); exact PM|].
  unfold LogMatching.fappend.
  pose proof (find_conflict_pos a B ents (N.to_nat prev)) as FC.
  replace (N.of_nat (N.to_nat prev) + 1) with (prev + 1) in FC by lia. specialize (FC C).
  destruct (LogMatching.first_conflict (skipn (N.to_nat prev) (absl a)) (map absent ents)) as [c|].
  - destruct FC as [F L]. rewrite F.
    destruct (N.eqb_spec (prev + 1 + N.of_nat c) 0); [lia|].
    replace (N.to_nat (prev + 1 + N.of_nat c - (prev + 1))) with c by lia.
    destruct (nth_error ents c) as [e0|] eqn:NC; [|apply nth_error_None in NC; lia].
    pose proof (contig_nth _ _ _ _ C NC) as EI. apply skipn_nth_error_cons in NC as [rest SK]. rewrite SK.
    unfold a_truncate_append, absl. cbn [a_ents a_base a_base_term]. rewrite EI, B.
    replace (N.to_nat (prev + 1 + N.of_nat c - 0 - 1)) with (N.to_nat prev + c)%nat by lia.
    rewrite map_app, firstn_map, <- SK, skipn_map. auto.
  - rewrite FC. cbn. auto.
Qed.

End ToProtocol.


(* appendEntry: entries stamped lastIndex+1.. extend the logical log at its end (the
   LeaderAppend rule) *)
Theorem l_append_end_view st l ents l' e0 rest :
  l_wf st l -> ents = e0 :: rest -> contig (e_index e0) ents ->
  e_index e0 = a_last (lview st l) + 1 ->
  l_append st l ents = Ok l' ->
  l_wf st l' /\
  lview st l' = mkAbs (a_base (lview st l)) (a_base_term (lview st l)) (a_ents (lview st l) ++ ents).
Proof.
  intros W -> C EI H.
  destruct (l_append_view st l l' e0 rest W C ltac:(unfold a_last in *; lia) H) as (W' & -> & _). split; [exact W'|].
  rewrite a_truncate_append_splice, EI. apply a_splice_end.
Qed.

From RaftV Require Safety.

Section UpToDate.
Variable pay : entry -> N.

Lemma l_last_entry_id_view st l t i :
  l_wf st l -> a_base (lview st l) = 0 -> a_base_term (lview st l) = 0 ->
  l_last_entry_id st l = Ok (t, i) ->
  t = Safety.lastT (absl pay (lview st l)) /\ i = N.of_nat (length (absl pay (lview st l))).
Proof.
  intros W B BT H. unfold l_last_entry_id in H. rewrite (lview_last st l W) in H.
  pose proof (l_term_view st l (a_last (lview st l)) W) as T.
  destruct (a_term (lview st l) (a_last (lview st l))) as [t'|] eqn:AT.
  2:{ apply a_term_none in AT. unfold a_last in AT. lia. }
  rewrite T in H. inversion H; subst t' i. unfold absl. rewrite map_length. split; [|unfold a_last, nlen; lia].
  unfold a_last in AT. rewrite B in AT.
  destruct (a_ents (lview st l)) as [|x xs] eqn:EN.
  - rewrite a_term_base, BT in AT by (rewrite B; reflexivity). inversion AT. reflexivity.
  - destruct (Safety.lastT_nth (map (absent pay) (x :: xs))) as [e [NL ->]]; [discriminate|].
    rewrite map_length, nth_error_map in NL.
    rewrite a_term_at, a_at_nth, B, EN in AT by (rewrite nlen_cons; lia).
    replace (N.to_nat (0 + nlen (x :: xs) - 0 - 1)) with (length (x :: xs) - 1)%nat in AT by (rewrite length_nlen; lia).
    destruct (nth_error (x :: xs) (length (x :: xs) - 1)); [|discriminate]. inversion NL. inversion AT. reflexivity.
Qed.

(* isUpToDate(candidate's last term, last index) is the up-to-date rule of Spec/Safety.v, given
   a candidate log with that last term and length *)
Theorem l_is_up_to_date_view st l term index b lc :
  l_wf st l -> a_base (lview st l) = 0 -> a_base_term (lview st l) = 0 ->
  Safety.lastT lc = term -> N.of_nat (length lc) = index ->
  l_is_up_to_date st l term index = Ok b ->
  (b = true <-> Safety.utd lc (absl pay (lview st l))).
Proof.
  intros W B BT LT LI H. unfold l_is_up_to_date in H.
  destruct (l_last_entry_id st l) as [[ot oi]|] eqn:LE; cbn [bind] in H; [|discriminate].
  destruct (l_last_entry_id_view st l ot oi W B BT LE) as [E1 E2]. inversion H; subst b; clear H.
  unfold Safety.utd. rewrite <- E1. rewrite LT.
  split.
  - intros X. bool_to_prop; [left; assumption|right; split; [assumption|lia]].
  - intros [X|[X1 X2]]; apply orb_true_iff.
    + left. apply N.ltb_lt. exact X.
    + right. apply andb_true_iff. split; [apply N.eqb_eq; exact X1|apply N.leb_le; lia].
Qed.

End UpToDate.

Print Assumptions l_maybe_append_view.
Print Assumptions a_maybe_append_is_follower_rule.
Print Assumptions l_append_end_view.
Print Assumptions l_is_up_to_date_view.

From RaftV Require Import Raft RaftSteps.

Lemma set_r_log_log r l : r_log (set_r_log r l) = l.
Proof. reflexivity. Qed.

Lemma send_log r m r' : send r m = Ok r' -> r_log r' = r_log r.
Proof. intros H. destruct (send_keeps _ _ _ H) as [E|E]; rewrite E; reflexivity. Qed.

(* handleAppendEntries: a MsgApp either leaves the follower's log alone (stale message below the
   commit index, or the (prev index, prev term) test fails) or changes its logical log exactly as
   the abstract maybe-append does; nothing else about the log changes *)
Theorem handle_append_entries_view st r m r' :
  l_wf st (r_log r) -> contig (m_index m + 1) (m_entries m) ->
  a_base (lview st (r_log r)) <= l_committed (r_log r) ->
  handle_append_entries st r m = Ok r' ->
  l_wf st (r_log r') /\
  (lview st (r_log r') = lview st (r_log r) \/
   a_maybe_append (lview st (r_log r)) (m_index m) (m_logterm m) (m_entries m) = Some (lview st (r_log r'))).
Proof.
  intros W C BC H. unfold handle_append_entries in H.
  destruct (N.ltb_spec (m_index m) (l_committed (r_log r))).
  { apply send_log in H. rewrite H. split; [exact W|left; reflexivity]. }
  destruct (l_maybe_append st (r_log r) (m_index m) (m_logterm m) (m_entries m) (m_commit m)) as [[l o]|] eqn:MA;
    cbn [bind] in H; [|discriminate].
  destruct (l_maybe_append_view st (r_log r) _ _ _ _ _ _ W C BC MA) as [W' V].
  destruct (a_maybe_append (lview st (r_log r)) (m_index m) (m_logterm m) (m_entries m)) as [a'|]; destruct V as [V ->].
  - apply send_log in H. rewrite H, set_r_log_log. split; [exact W'|right]. rewrite V. reflexivity.
  - destruct (l_find_conflict_by_term _ _ _ _) as [hi ht].
    apply send_log in H. rewrite H, set_r_log_log, V. split; [exact W|left; reflexivity].
Qed.

Print Assumptions handle_append_entries_view.
Print Assumptions a_maybe_append_holds.
