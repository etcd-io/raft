(* SliceRefine.v: raftLog.slice (and with it entries, nextCommittedEnts, the MsgApp payloads) returns
   entries of the logical log: the k-th entry returned for slice(lo, hi, max) is the entry the logical
   log holds at index lo + k. *)
From Coq Require Import List NArith Bool Lia Arith.
From RaftV Require Import Base Types Storage Log Tactics LogProofs AppendRefine.
Import ListNotations.
Open Scope N_scope.

Theorem l_slice_view st l lo hi maxSize es :
  l_wf st l ->
  l_slice st l lo hi maxSize = Ok (es, ENone) ->
  forall k e, nth_error es k = Some e -> a_at (lview st l) (lo + N.of_nat k) = Some e.
Proof.
  intros W H k e NK. pose proof W as (_ & WU & _).
  destruct (l_slice_shape _ _ _ _ _ _ _ H) as [->|(_ & FI & SH)]; [destruct k; discriminate|].
  assert (UN : forall lo' us j x, u_offset (l_unstable l) <= lo' -> u_slice (l_unstable l) lo' hi = Ok us ->
                 nth_error us j = Some x -> a_at (lview st l) (lo' + N.of_nat j) = Some x).
  { intros lo' us j x UL EU NJ. destruct (u_slice_spec _ _ _ _ WU EU) as (_ & _ & _ & -> & _).
    apply nth_error_cut in NJ as [_ NJ]. rewrite lview_at_unstable by (try exact W; lia).
    rewrite <- NJ. f_equal. lia. }
  (* a range that starts in stable storage: lo is at or above the first index, so no snapshot is pending *)
  assert (ST : forall hi' j x, ms_dummy_index st < lo < u_offset (l_unstable l) -> hi' <= u_offset (l_unstable l) ->
                 nth_error (limit_size (a_range (abs_ms st) lo hi') maxSize) j = Some x ->
                 a_at (lview st l) (lo + N.of_nat j) = Some x).
  { intros hi' j x LB HO NJ. apply limit_size_nth, a_range_nth in NJ as [JB AT]; [|apply LB].
    rewrite lview_at_stable; [exact AT|exact W| |lia].
    destruct (lview_cases st l W) as [(s & SS & O & _)|(SN & _)]; [|exact SN].
    exfalso. unfold l_first_index, u_maybe_first_index in FI. rewrite SS in FI. lia. }
  destruct SH as [us UL EU|LB|se us LB HU -> LS _ EU _].
  - apply limit_size_nth in NK. exact (UN lo us k e UL EU NK).
  - apply (ST _ k e LB) in NK; [exact NK|lia].
  - destruct (Nat.lt_ge_cases k (length (limit_size (a_range (abs_ms st) lo (u_offset (l_unstable l))) maxSize))) as [KS|KS].
    + rewrite nth_error_app1 in NK by exact KS. apply (ST _ k e LB) in NK; [exact NK|lia].
    + rewrite nth_error_app2 in NK by exact KS. apply limit_size_nth in NK. rewrite length_nlen, LS in *.
      apply (UN (u_offset (l_unstable l))) in NK; [|lia|exact EU]. rewrite <- NK. f_equal. lia.
Qed.

(* nextCommittedEnts hands out entries of the logical log, starting right after the applying cursor *)
Theorem l_next_committed_ents_view st l allow es :
  l_wf st l -> l_next_committed_ents st l allow = Ok es ->
  forall k e, nth_error es k = Some e -> a_at (lview st l) (l_applying l + 1 + N.of_nat k) = Some e.
Proof.
  intros W H k e NK. unfold l_next_committed_ents in H.
  destruct (l_applying_paused l); [inversion H; subst; destruct k; discriminate|].
  destruct (l_has_next_or_in_progress_snapshot l); [inversion H; subst; destruct k; discriminate|].
  destruct (_ <=? _); [inversion H; subst; destruct k; discriminate|].
  destruct (N.eqb _ 0); [discriminate|].
  destruct (l_slice st l (l_applying l + 1) (l_max_appliable l allow + 1) (sub64 (l_max_applying_size l) (l_applying_size l)))
    as [[ents er]|] eqn:SL; cbn [bind] in H; [|discriminate].
  destruct er; try discriminate. inversion H; subst ents.
  exact (l_slice_view st l _ _ _ es W SL k e NK).
Qed.

Print Assumptions l_slice_view.
Print Assumptions l_next_committed_ents_view.
