(* FlowProofs.v: size limits and flow control (C16): limitSize, raftLog.slice, the append
   path of maybeSendAppend, Inflights, the uncommitted-size budget. *)
From Coq Require Import List NArith Bool Lia.
From RaftV Require Import Base Types Quorum Progress Tracker Storage Log Raft RawNode Tactics LogProofs.
Import ListNotations.
Open Scope N_scope.


Arguments ents_size : simpl never.
Arguments entry_size : simpl never.
Arguments payloads_size : simpl never.

Lemma entry_size_pos e : 0 < entry_size e.
Proof. unfold entry_size. lia. Qed.

Definition fits (es : list entry) (maxSize : N) : Prop := ents_size es <= maxSize \/ length es = 1%nat.


(* limitSize returns a non-empty prefix that fits the budget unless it is a single entry *)
Theorem limit_size_spec ents maxSize :
  ents <> [] ->
  exists k, limit_size ents maxSize = firstn (S k) ents /\ fits (limit_size ents maxSize) maxSize.
Proof.
  intros Hne. destruct (limit_size_prefix ents maxSize) as (k & E & NZ & F).
  destruct k as [|k]; [contradiction (NZ Hne eq_refl)|]. exists k. split; [exact E|]. rewrite E.
  destruct F as [F|F]; [left; exact F|right]. destruct ents; [congruence|].
  replace k with 0%nat by lia. reflexivity.
Qed.

Lemma limit_size_nil maxSize : limit_size [] maxSize = [].
Proof. reflexivity. Qed.

Lemma limit_size_fits ents maxSize : ents = [] \/ fits (limit_size ents maxSize) maxSize.
Proof.
  destruct ents as [|e rest]; [left; reflexivity|right].
  destruct (limit_size_spec (e :: rest) maxSize) as [k [_ F]]; [congruence|exact F].
Qed.

Lemma limit_size_nonempty ents maxSize : ents <> [] -> limit_size ents maxSize <> [].
Proof.
  intros H. destruct (limit_size_spec ents maxSize H) as [k [E _]]. rewrite E.
  destruct ents; [congruence|]. cbn. congruence.
Qed.


Definition fits_or_empty (es : list entry) (maxSize : N) : Prop := es = [] \/ fits es maxSize.

Lemma limit_fits_or_empty ents maxSize : fits_or_empty (limit_size ents maxSize) maxSize.
Proof.
  destruct (limit_size_fits ents maxSize) as [H|H]; [left; subst; reflexivity|right; exact H].
Qed.

Lemma ms_entries_fits st lo hi maxSize es e :
  ms_entries st lo hi maxSize = Ok (es, e) -> fits_or_empty es maxSize.
Proof.
  unfold ms_entries. intros H. inv_ok; try (left; reflexivity). apply limit_fits_or_empty.
Qed.

Theorem l_slice_fits st l lo hi maxSize es e :
  l_slice st l lo hi maxSize = Ok (es, e) -> fits_or_empty es maxSize.
Proof.
  intros H. destruct (l_slice_shape _ _ _ _ _ _ _ H) as [->|(_ & _ & SH)]; [left; reflexivity|].
  destruct SH as [us _ _| |se us _ _ _ _ SZ _ ONE]; try apply limit_fits_or_empty.
  right. left. rewrite ents_size_app.
  destruct (limit_size_fits us (maxSize - ents_size se)) as [->|[Z|Z]].
  - rewrite limit_size_nil, ents_size_nil. lia.
  - lia.
  - apply ONE. unfold nlen. rewrite Z. reflexivity.
Qed.

Theorem l_entries_fits st l i maxSize es e :
  l_entries st l i maxSize = Ok (es, e) -> fits_or_empty es maxSize.
Proof.
  unfold l_entries. intros H. inv_ok; [left; reflexivity|]. eapply l_slice_fits; eassumption.
Qed.


(* every MsgApp queued by maybeSendAppend carries entries within MaxSizePerMsg, or a single
   entry; and nothing is sent to a follower whose snapshot is pending *)
Theorem maybe_send_append_msgs st r to sie r' b :
  maybe_send_append st r to sie = Ok (r', b) ->
  forall pr, get_progress r to = Some pr ->
  (pr_state_ pr = StateSnapshot -> r' = r /\ b = false) /\
  (forall m, In m (r_msgs r') -> ~ In m (r_msgs r) -> m_type m = MsgApp ->
             fits_or_empty (m_entries m) (r_max_msg_size r)).
Proof.
  unfold maybe_send_append. intros H pr Hpr. rewrite Hpr in H. split.
  - intros S. unfold pr_is_paused in H. rewrite S in H. inversion H. auto.
  - intros m Hin Hnin Tm.
    destruct (pr_is_paused pr); [inversion H; subst; contradiction|].
    destruct (l_term st (r_log r) (pr_prev (pr_next pr))) as [pt pe].
    assert (SNAP : forall r1 b1, maybe_send_snapshot st r to pr = Ok (r1, b1) -> In m (r_msgs r1) -> ~ In m (r_msgs r) -> False).
    { intros r1 b1 HS Hi Hn. unfold maybe_send_snapshot in HS.
      destruct (negb (pr_recent_active pr)); [inversion HS; subst; contradiction|].
      destruct (N.eqb _ 0); [discriminate|].
      match type of HS with bind ?x _ = _ => destruct x as [r2|] eqn:E; cbn [bind] in HS; [|discriminate] end.
      inversion HS; subst; clear HS. unfold send in E. cbn in E.
      destruct (N.eqb to (r_id r)); [discriminate|]. inversion E; subst; clear E. cbn in Hi.
      apply in_app_or in Hi. destruct Hi as [Hi|[Hi|[]]]; [contradiction|]. subst m. cbn in Tm. discriminate. }
    destruct pe; try (eapply SNAP in H; [contradiction|eassumption|eassumption]).
    match type of H with bind ?x _ = _ => destruct x as [[ents e]|] eqn:EE; cbn [bind] in H; [|discriminate] end.
    assert (FE : fits_or_empty ents (r_max_msg_size r)).
    { destruct (_ || _) in EE; [eapply l_entries_fits; exact EE|inversion EE; left; reflexivity]. }
    destruct (_ && _); [inversion H; subst; contradiction|].
    destruct e; try (eapply SNAP in H; [contradiction|eassumption|eassumption]).
    match type of H with bind ?x _ = _ => destruct x as [r2|] eqn:E; cbn [bind] in H; [|discriminate] end.
    match type of H with bind ?x _ = _ => destruct x as [pr2|] eqn:E2; cbn [bind] in H; [|discriminate] end.
    inversion H; subst; clear H. cbn in Hin.
    unfold send in E. cbn in E. destruct (N.eqb to (r_id r)); [discriminate|]. inversion E; subst; clear E.
    cbn in Hin. apply in_app_or in Hin. destruct Hin as [Hin|[Hin|[]]]; [contradiction|]. subst m. cbn. exact FE.
Qed.


Theorem increase_uncommitted_spec r es r' ok :
  increase_uncommitted_size r es = (r', ok) ->
  let s := payloads_size es in
  (ok = false <-> 0 < r_uncommitted_size r /\ 0 < s /\ r_max_uncommitted_size r < r_uncommitted_size r + s) /\
  (ok = false -> r' = r) /\
  (ok = true -> r_uncommitted_size r' = r_uncommitted_size r + s /\
                (r_uncommitted_size r' <= r_max_uncommitted_size r \/ r_uncommitted_size r = 0 \/ s = 0)).
Proof.
  unfold increase_uncommitted_size. intros H. cbv zeta.
  destruct (_ && _) eqn:E; inversion H; subst; clear H; cbn.
  - bool_to_prop. repeat split; intros; try lia; try discriminate; auto.
  - repeat split; intros; try discriminate; try lia; bool_to_prop; lia.
Qed.

(* a proposal that does not fit is reported as dropped and appends nothing *)
Theorem append_entry_dropped st r es r' :
  append_entry st r es = Ok (r', false) -> r' = r.
Proof.
  unfold append_entry. intros H.
  destruct (increase_uncommitted_size r _) as [r1 ok] eqn:E.
  destruct (increase_uncommitted_spec _ _ _ _ E) as (_ & D & _).
  destruct ok; cbn [negb] in H.
  - inv_ok.
  - inversion H; subst. apply D. reflexivity.
Qed.


Definition infl_inv (i : inflights) : Prop := in_count i <= in_size i.

Lemma infl_add_inv i idx b i' :
  infl_inv i -> infl_add i idx b = Ok i' ->
  infl_inv i' /\ in_count i' = in_count i + 1 /\ in_bytes i' = in_bytes i + b /\
  in_size i' = in_size i /\ in_maxbytes i' = in_maxbytes i.
Proof.
  unfold infl_inv, infl_add, infl_full. intros I H.
  destruct (N.eqb (in_count i) (in_size i) || _) eqn:F; [discriminate|].
  bool_to_prop; inversion H; subst; clear H;
  destruct (nlen (in_buffer i) <=? _); cbn [infl_grow in_count in_size in_bytes in_maxbytes];
    repeat split; lia.
Qed.

(* adding to a full window is an assertion failure, never a silent overflow *)
Lemma infl_add_full i idx b : infl_full i = true -> infl_add i idx b = Panic PInflightsAddFull.
Proof. unfold infl_add. intros F. rewrite F. reflexivity. Qed.

Lemma free_loop_le i to n : forall idx k bytes idx' k' bytes',
  free_loop i to n idx k bytes = (idx', k', bytes') -> k' <= k + N.of_nat n.
Proof.
  induction n as [|n IH]; intros idx k bytes idx' k' bytes' H; cbn in H.
  - inversion H; subst. lia.
  - destruct (to <? fst (buf_at i idx)); [inversion H; subst; lia|].
    apply IH in H. lia.
Qed.

Lemma infl_free_le_inv i to : infl_inv i -> infl_inv (infl_free_le i to) /\ in_count (infl_free_le i to) <= in_count i.
Proof.
  unfold infl_inv, infl_free_le. intros I.
  destruct (_ || _); [split; lia|].
  destruct (free_loop i to (N.to_nat (in_count i)) (in_start i) 0 0) as [[idx k] bytes] eqn:E.
  cbn. split; lia.
Qed.

Lemma infl_reset_inv i : infl_inv (infl_reset i).
Proof. unfold infl_inv, infl_reset. cbn. lia. Qed.

Lemma infl_full_count i : infl_inv i -> infl_full i = false -> in_count i < in_size i.
Proof. unfold infl_inv, infl_full. intros I F. bool_to_prop; lia. Qed.
