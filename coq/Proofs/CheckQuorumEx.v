(* CheckQuorumEx.v: a concrete leader that meets the hypotheses of check_quorum_steps_down
   (Proofs/CheckQuorumProofs.v): node 1 of three voters is elected with CheckQuorum on (election
   timeout 10) and then only ticks; after 20 ticks it has stepped down. *)
From Coq Require Import List NArith Bool Lia.
From RaftV Require Import Base Types Quorum Progress Tracker Storage Log Raft RawNode Tactics
     RaftMono QuorumProofs CheckQuorumProofs.
Import ListNotations.
Open Scope N_scope.

Definition cq_cfg : rconfig :=
  mkCfg 1 10 1 0 false 1000 0 0 256 0 true false ReadOnlySafe false false false.

Definition cq_boot : list (ninput * list N) :=
  [ (IStApplySnapshot (mkSnapshot 1 1 (mkConfState [1; 2; 3] [] [] [] false) []), []);
    (INew cq_cfg, [3]);
    (ICampaign, [4]);
    (IReady, []);
    (IStSetHardState (mkHS 1 1 1), []);
    (IAdvance, [5]);
    (IStep (mkMsg MsgVoteResp 1 2 1 0 0 [] 0 0 None false 0 []), [6]) ].

Definition cq_node : res nstate := Eval vm_compute in node_run init_node cq_boot.

Definition cq_st : memstorage :=
  Eval vm_compute in match cq_node with Ok n => n_st n | _ => new_memstorage end.

Definition cq_leader : option raft :=
  Eval vm_compute in match cq_node with
                     | Ok n => match n_rn n with Some rn => Some (set_r_draws (rn_raft rn) [3; 3; 3]) | None => None end
                     | _ => None end.

Definition cq_ops : list lop := repeat LTick 20.

Definition cq_final : option (state_type * N) :=
  Eval vm_compute in
    match cq_leader with
    | Some r => match lrun cq_st r cq_ops with Ok rf => Some (r_state rf, r_term rf) | _ => None end
    | None => None
    end.

Lemma cq_no_quorum r : r_id r = 1 -> t_config (r_trk r) = mkConfig [1; 2; 3] [] false [] [] -> no_quorum r [].
Proof.
  intros ID CF votes HV W. rewrite CF in W. cbn [c_voters c_outgoing] in W.
  apply joint_vote_spec in W. destruct W as [[W|W] _]; [discriminate|].
  unfold yes_majority, count_yes in W. cbn [filter length] in W.
  assert (NO : forall id, id <> 1 -> match alookup votes id with Some true => true | _ => false end = false).
  { intros id NE. destruct (alookup votes id) as [[|]|] eqn:E; try reflexivity. destruct (HV _ E) as [X|[]]. congruence. }
  rewrite (NO 2), (NO 3) in W by discriminate. destruct (match alookup votes 1 with Some true => true | _ => false end); cbn in W; lia.
Qed.

(* the elected leader of the example, and what the theorem asks of it *)
Lemma cq_leader_ok :
  exists r, cq_leader = Some r /\
    r_state r = StateLeader /\ r_check_quorum r = true /\ r_lead r <> NoneId /\
    r_election_timeout r = 10 /\ no_quorum r [].
Proof.
  destruct cq_leader as [r|] eqn:ER; [|discriminate ER]. exists r. split; [reflexivity|].
  unfold cq_leader in ER. injection ER as <-.
  split; [reflexivity|]. split; [reflexivity|]. split; [cbn; discriminate|]. split; [reflexivity|].
  apply cq_no_quorum; reflexivity.
Qed.

Example check_quorum_nonvacuous :
  exists st r ops rf,
    r_state r = StateLeader /\ r_check_quorum r = true /\ r_lead r <> NoneId /\
    1 <= r_election_timeout r /\ no_quorum r [] /\ ops_ok r [] ops /\
    lrun st r ops = Ok rf /\ 2 * r_election_timeout r <= ticks ops /\
    r_state rf = StateFollower /\ left_term st r ops.
Proof.
  destruct cq_leader_ok as (r & ER & SL & CQ & LD & ET & NQ). unfold cq_leader in ER. injection ER as ER.
  destruct (lrun cq_st r cq_ops) as [rf|] eqn:EL; [|rewrite <- ER in EL; vm_compute in EL; discriminate EL].
  assert (SF : r_state rf = StateFollower).
  { rewrite <- ER in EL. vm_compute in EL. inversion EL. reflexivity. }
  assert (OK : ops_ok r [] cq_ops) by (unfold ops_ok, cq_ops; cbn; repeat constructor).
  assert (ET1 : 1 <= r_election_timeout r) by (rewrite ET; discriminate).
  assert (TK : 2 * r_election_timeout r <= ticks cq_ops) by (rewrite ET; vm_compute; discriminate).
  exists cq_st, r, cq_ops, rf. repeat split; try assumption.
  eapply check_quorum_steps_down; eassumption.
Qed.

(* Without the exclusion of leadership-transfer requests the statement is false of the model (and
   of the code: corpus/f13_transfer_postpones_checkquorum.sched replays it on real RawNodes): the
   same cut-off leader is asked to transfer leadership to node 2, then five ticks later to node 3,
   and so on; every accepted request restarts its election timer, the check never fires, and after
   30 ticks (three election timeouts) it still leads its term.  Finding F13. *)
Definition xfer (to : N) : lop := LStep (set_from (msg0 MsgTransferLeader) to).
Definition cq_ops_xfer : list lop :=
  let five := repeat LTick 5 in
  (xfer 2 :: five) ++ (xfer 3 :: five) ++ (xfer 2 :: five) ++ (xfer 3 :: five) ++ (xfer 2 :: five) ++ (xfer 3 :: five).

Example check_quorum_unrestricted_refuted :
  exists st r ops rf,
    r_state r = StateLeader /\ r_check_quorum r = true /\ r_lead r <> NoneId /\
    1 <= r_election_timeout r /\ no_quorum r [] /\
    Forall (fun o => match o with LTick => True | LStep m => marks m = false end) ops /\
    lrun st r ops = Ok rf /\ 2 * r_election_timeout r <= ticks ops /\
    ~ left_term st r ops.
Proof.
  destruct cq_leader_ok as (r & ER & SL & CQ & LD & ET & NQ). unfold cq_leader in ER. injection ER as ER.
  destruct (lrun cq_st r cq_ops_xfer) as [rf|] eqn:EL; [|rewrite <- ER in EL; vm_compute in EL; discriminate EL].
  exists cq_st, r, cq_ops_xfer, rf. rewrite ET.
  split; [exact SL|]. split; [exact CQ|]. split; [exact LD|]. split; [discriminate|]. split; [exact NQ|].
  split; [unfold cq_ops_xfer; cbn; repeat constructor|].
  split; [exact EL|].
  split; [vm_compute; discriminate|].
  apply stays_not_left. rewrite <- ER. vm_compute. reflexivity.
Qed.
