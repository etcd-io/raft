(* TermProofs.v: every message a node emits carries a term that is not below the term the node
   had when the call began (clause d of C07: a node never votes, leads or acknowledges in a term
   lower than its hard state), for every function of the node model and every input.  Messages
   that raft sends without a term (a forwarded proposal or read request) are the only exception.
   Together with RaftMono (the term never decreases) and NodeProps (a restart continues from the
   persisted hard state) this says that nothing a node emits after a restart carries a term
   below the last persisted one.  The relation [tex] is reflexive, transitive and holds of every
   primitive update of RaftSteps.v, hence of Step and tick. *)
From Coq Require Import List NArith Bool Lia.
From RaftV Require Import Base Types Quorum Progress Tracker Storage Log Raft RawNode Tactics RaftSteps RaftMono.
Import ListNotations.
Open Scope N_scope.

Section WithT.
Variable T : N.

Definition tok (m : message) : Prop :=
  T <= m_term m \/ (m_term m = 0 /\ (m_type m = MsgProp \/ m_type m = MsgReadIndex)).

Definition tex (r r' : raft) : Prop :=
  T <= r_term r ->
  T <= r_term r' /\
  (exists l, r_msgs r' = r_msgs r ++ l /\ Forall tok l) /\
  (exists l, r_msgs_after_append r' = r_msgs_after_append r ++ l /\ Forall tok l).

Lemma tex_trans a b c : tex a b -> tex b c -> tex a c.
Proof.
  unfold tex. intros H1 H2 HT. destruct (H1 HT) as (T1 & (l1 & M1 & F1) & (k1 & A1 & G1)).
  destruct (H2 T1) as (T2 & (l2 & M2 & F2) & (k2 & A2 & G2)).
  split; [exact T2|]. split.
  - exists (l1 ++ l2). rewrite M2, M1, app_assoc. split; [reflexivity|]. apply Forall_app; auto.
  - exists (k1 ++ k2). rewrite A2, A1, app_assoc. split; [reflexivity|]. apply Forall_app; auto.
Qed.

Lemma tex_raise r r' :
  r_term r <= r_term r' -> r_msgs r' = r_msgs r -> r_msgs_after_append r' = r_msgs_after_append r ->
  tex r r'.
Proof.
  intros S M A HT. split; [lia|]. rewrite M, A. split; exists []; rewrite app_nil_r; auto.
Qed.

Lemma tex_frame r r' :
  r_term r' = r_term r -> r_msgs r' = r_msgs r -> r_msgs_after_append r' = r_msgs_after_append r ->
  tex r r'.
Proof. intros S. apply tex_raise. rewrite S. apply N.le_refl. Qed.

Lemma tex_refl r : tex r r.
Proof. apply tex_frame; reflexivity. Qed.

(* send: a message of the vote family carries the term it is given, every other message the
   sender's current term (or none) *)
Lemma send_tex r m r' :
  (is_vote_family (m_type m) = true -> m_term m = 0 \/ r_term r <= m_term m) ->
  send r m = Ok r' -> tex r r'.
Proof.
  unfold send. intros HV H HT.
  set (m1 := if N.eqb (m_from m) NoneId then set_from m (r_id r) else m) in *.
  assert (TY : m_type m1 = m_type m) by (subst m1; destruct (N.eqb _ _); reflexivity).
  assert (TM : m_term m1 = m_term m) by (subst m1; destruct (N.eqb _ _); reflexivity).
  match type of H with bind ?x _ = _ => destruct x as [m2|] eqn:E2; cbn [bind] in H; [|discriminate] end.
  assert (OK2 : tok m2).
  { rewrite TY, TM in E2. destruct (is_vote_family (m_type m)).
    - (* send refuses a vote message without a term *)
      destruct (N.eqb (m_term m) 0) eqn:E0; [discriminate|]. inversion E2; subst m2.
      left. rewrite TM. apply N.eqb_neq in E0. destruct (HV eq_refl); [congruence|lia].
    - destruct (negb (N.eqb (m_term m) 0)) eqn:E0; [discriminate|].
      apply negb_false_iff, N.eqb_eq in E0.
      destruct (m_type m) eqn:TT; inversion E2; subst m2;
        first [ left; exact HT | right; split; [rewrite TM; exact E0|rewrite TY; auto] ]. }
  destruct (m_type m2); try (destruct (N.eqb (m_to m2) (r_id r)); [discriminate|]);
    inversion H; subst r'; cbn; (split; [exact HT|]); split;
    first [ exists []; rewrite app_nil_r; split; [reflexivity|constructor]
          | eexists; split; [reflexivity|]; constructor; [exact OK2|constructor] ].
Qed.

Lemma emit_tex r r' : emit r r' -> tex r r'.
Proof.
  destruct 1 as [m r' H V| | |r' H]; try solve [apply tex_frame; reflexivity].
  - eapply send_tex; eassumption.
  - rewrite H. apply tex_frame; reflexivity.
Qed.

Section WithStorage.
Variable st : memstorage.

Lemma reset_randomized_tex r r' : reset_randomized r = Ok r' -> tex r r'.
Proof. unfold reset_randomized. intros H. inv_ok. apply tex_frame; reflexivity. Qed.

Lemma clear_recent_active_tex r : tex r (clear_recent_active r).
Proof. apply tex_frame; reflexivity. Qed.

Lemma reset_tex r term r' : r_term r <= term -> reset st r term = Ok r' -> tex r r'.
Proof.
  intros L H. destruct (reset_eq _ _ _ _ H) as (d & ds & _ & E). rewrite E.
  apply tex_raise; [exact L|reflexivity|reflexivity].
Qed.

Lemma become_follower_frame r term lead r' :
  become_follower st r term lead = Ok r' ->
  r_term r' = term /\ r_msgs r' = r_msgs r /\ r_msgs_after_append r' = r_msgs_after_append r.
Proof.
  intros H. destruct (become_follower_eq _ _ _ _ _ H) as (r1 & ER & ->). destruct (reset_eq _ _ _ _ ER) as (d & ds & _ & E). rewrite E. auto.
Qed.

Lemma prim_tex m r r' : wf_msg m -> prim st m r r' -> tex r r'.
Proof.
  intros WF P. destruct P; try solve [apply tex_frame; reflexivity].
  - apply emit_tex. exact Em.
  - (* a leader message carries a term, which Step has compared with the node's *)
    destruct (become_follower_frame _ _ _ _ Bf) as (E & M & A).
    apply tex_raise; [rewrite E; auto using wf_leader_msg|exact M|exact A].
  - (* a campaign raises the term *)
    destruct (become_candidate_eq _ _ _ Bc) as (r1 & ER & ->).
    eapply tex_trans; [eapply reset_tex; [|exact ER]; lia|apply tex_frame; reflexivity].
  - rewrite (become_pre_candidate_eq _ _ Bp).
    apply tex_frame; reflexivity.
  - eapply tex_trans; [eapply reset_tex; [|exact Rs]; apply N.le_refl|apply tex_frame; reflexivity].
Qed.

Lemma steps_tex m r r' : wf_msg m -> steps st m r r' -> tex r r'.
Proof.
  intros WF. apply steps_in; [exact tex_refl|exact tex_trans| |]; intros a b.
  - apply prim_tex, WF.
  - apply prim_tex, wf_leave_joint_prop.
Qed.

(* Every message a node steps: whatever it emits carries no term or a term that is not below the
   term the node had before. *)
Theorem step_tex r m r' e : wf_msg m -> step st r m = Ok (r', e) -> tex r r'.
Proof. intros WF H. eapply steps_tex, step_steps; eassumption. Qed.

Theorem tick_tex r r' : tick st r = Ok r' -> tex r r'.
Proof.
  intros H. apply tick_ticks in H. revert H.
  apply tsteps_in; [exact tex_refl|exact tex_trans|intros; apply tex_frame; reflexivity| |].
  - intros m a b M. apply prim_tex, wf_tick_msg, M.
  - intros a b. apply prim_tex, wf_leave_joint_prop.
Qed.

End WithStorage.
End WithT.

From RaftV Require Import NodeSteps NodeProps.

Definition tinv (T : N) (rn : rawnode) : Prop :=
  T <= r_term (rn_raft rn) /\
  Forall (tok T) (r_msgs (rn_raft rn)) /\ Forall (tok T) (r_msgs_after_append (rn_raft rn)).

Lemma tex_tinv T rn rn' : tex T (rn_raft rn) (rn_raft rn') -> tinv T rn -> tinv T rn'.
Proof.
  intros X (HT & M & A). destruct (X HT) as (T1 & (l & ML & FL) & (k & AK & FK)).
  unfold tinv. split; [exact T1|]. rewrite ML, AK. split; apply Forall_app; auto.
Qed.

Section NodeLevel.
Variable T : N.
Variable st : memstorage.

Lemma rn_raft_step_tinv rn m rn' e :
  wf_msg m -> rn_raft_step st rn m = Ok (rn', e) -> tinv T rn -> tinv T rn'.
Proof.
  intros WF H. destruct (rn_raft_step_ok _ _ _ _ _ H) as (r & E & ->).
  apply tex_tinv. eapply step_tex; eassumption.
Qed.

Lemma step_all_tex ms r r' : Forall wf_msg ms -> step_all st r ms = Ok r' -> tex T r r'.
Proof.
  intros W. rewrite Forall_forall in W. apply step_all_in; [apply tex_refl|apply tex_trans|].
  intros m a b I S. eapply steps_tex; [apply W, I|exact S].
Qed.

(* a Ready: everything it hands to the transport, and every response it attaches to the storage
   write, satisfies [tok T] *)
Lemma rn_ready_tinv rn rn' rd :
  rn_ready st rn = Ok (rn', rd) -> tinv T rn ->
  tinv T rn' /\ Forall (tok T) (rd_msgs rd) /\
  (forall sa, rd_append rd = Some sa -> Forall (tok T) (sa_responses sa)).
Proof.
  intros H (HT & M & A). destruct (rn_ready_ok _ _ _ _ H) as [ER EA].
  split.
  - destruct (accept_ready_raft _ _ _ _ EA) as ((Q1 & _) & Q2 & Q3 & _).
    unfold tinv. rewrite Q1, Q2, Q3. auto.
  - unfold ready_without_accept in ER. cbv zeta in ER.
    apply bind_ok in ER. destruct ER as (cents & _ & ER).
    destruct (rn_async rn).
    + apply bind_ok in ER. destruct ER as (sa0 & ES & ER).
      injection ER as <-. cbn [rd_msgs rd_append]. split; [exact M|].
      intros sa HS. subst sa0.
      destruct (_ || _ || _ || _); [|discriminate].
      apply bind_ok in ES. destruct ES as (resps & E3 & ES). injection ES as <-. cbn [sa_responses].
      destruct (need_storage_append_resp _ _); [|injection E3 as <-; exact A].
      apply bind_ok in E3. destruct E3 as (m0 & E4 & E3). injection E3 as <-.
      apply Forall_app. split; [exact A|].
      (* the response of the append thread is stamped with the node's term *)
      constructor; [|constructor]. unfold storage_append_resp in E4.
      apply bind_ok in E4. destruct E4 as (idt & _ & E4). injection E4 as <-. left. exact HT.
    + injection ER as <-. cbn [rd_msgs rd_append]. split; [|discriminate].
      apply Forall_app. split; [exact M|]. eapply incl_Forall; [apply incl_filter|exact A].
Qed.

Lemma rn_call_tinv i out rn rn' :
  wf_input i -> inv_rn rn -> rn_call st i out rn rn' -> tinv T rn -> tinv T rn'.
Proof.
  intros W [IS _] C. destruct C as [rn' _ _ H|_ _|m rn' e Ei _ H|m rn' e _ _ A _ H|cc rn' cs _ _ H|rn' rd _ _ H|_ _|rn' _ _ H].
  - destruct (rn_tick_ok _ _ _ H) as (r & E & ->). apply tex_tinv. eapply tick_tex. exact E.
  - apply tex_tinv. apply tex_frame; reflexivity.
  - subst i. destruct (rn_step_ok _ _ _ _ _ H) as [->|H1]; [auto|]. eapply rn_raft_step_tinv; [exact W|exact H1].
  - eapply rn_raft_step_tinv; [exact (api_wf _ A)|exact H].
  - destruct (rn_apply_conf_change_ok _ _ _ _ _ H) as (r & E & ->). apply tex_tinv.
    eapply (steps_tex T st leave_joint_prop), apply_conf_change_raft_steps; [exact wf_leave_joint_prop|exact E].
  - intros I. apply (rn_ready_tinv _ _ _ H I).
  - auto.
  - destruct (rn_advance_ok _ _ _ H) as (r & E & ->). apply tex_tinv. eapply step_all_tex; [|exact E].
    eapply Forall_impl; [|exact IS]. exact nl_wf.
Qed.

End NodeLevel.

Theorem node_step_term T n i d n' out rn :
  n_rn n = Some rn -> inv_rn rn -> tinv T rn -> same_incarnation i = true -> wf_input i ->
  node_step n i d = Ok (n', out) ->
  exists rn', n_rn n' = Some rn' /\ inv_rn rn' /\ tinv T rn' /\
    (forall rd, out = OReady rd ->
       Forall (tok T) (rd_msgs rd) /\
       (forall sa, rd_append rd = Some sa -> Forall (tok T) (sa_responses sa))).
Proof.
  intros Hrn I TI SI W H.
  destruct (node_step_mono _ _ _ _ _ _ Hrn I SI W H) as (rn1 & H1 & I1 & _).
  exists rn1. split; [exact H1|]. split; [exact I1|].
  destruct (node_step_cases _ _ _ _ _ H)
    as [[[[N _]|[_ S]] E]|[[-> _]|[(c & rn2 & -> & _)|(rn0 & rn' & R0 & R' & _ & C)]]]; try discriminate SI.
  - congruence.
  - (* a storage write returns no Ready *)
    rewrite E, Hrn in H1. injection H1 as <-. split; [exact TI|]. intros rd ->. discriminate S.
  - rewrite Hrn in R0. rewrite H1 in R'. injection R0 as <-. injection R' as <-.
    split; [eapply rn_call_tinv; [exact W|apply with_draws_inv, I|exact C|exact TI]|].
    intros rd ->. apply rn_call_ready in C. apply (rn_ready_tinv T _ _ _ _ C TI).
Qed.

Theorem node_run_term T ins : forall n n' rn,
  n_rn n = Some rn -> inv_rn rn -> tinv T rn ->
  Forall (fun id => same_incarnation (fst id) = true /\ wf_input (fst id)) ins ->
  node_run n ins = Ok n' ->
  exists rn', n_rn n' = Some rn' /\ inv_rn rn' /\ tinv T rn'.
Proof.
  intros n n' rn Hrn I TI.
  apply (node_run_inv (fun x => inv_rn x /\ tinv T x) (fun i => same_incarnation i = true /\ wf_input i))
    with (rn := rn); [|exact Hrn|auto].
  intros m i d m' out x Hx [Ix Tx] [SI W] H.
  destruct (node_step_term T _ _ _ _ _ _ Hx Ix Tx SI W H) as (x' & Hx' & Ix' & Tx' & _). eauto.
Qed.

(* a new incarnation starts with nothing queued, so it satisfies the invariant for its own term,
   which is the term of the persisted hard state (C07_restart) *)
Theorem new_rawnode_tinv st c d rn :
  new_rawnode st c d = Ok rn -> tinv (r_term (rn_raft rn)) rn.
Proof.
  unfold new_rawnode. intros H. apply bind_ok in H. destruct H as (r & E & H). injection H as <-.
  destruct (new_raft_ok _ _ _ _ E) as (mu & mc & mb & cfg & pm & lrn & h & l & _ & _ & _ & _ & F).
  destruct (become_follower_frame _ _ _ _ _ F) as (_ & M & A).
  unfold tinv. cbn [rn_raft]. rewrite M, A. split; [apply N.le_refl|]. split; constructor.
Qed.
