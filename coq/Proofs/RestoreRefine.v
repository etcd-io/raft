(* RestoreRefine.v: an accepted snapshot leaves the node with exactly the snapshot's index, term and
   membership as its new log base. *)
From Coq Require Import List NArith Bool Lia Arith.
From RaftV Require Import Base Types Quorum Progress Tracker Storage Log Raft Tactics LogProofs AppendRefine.
Import ListNotations.
Open Scope N_scope.

Lemma switch_to_config_installs st r cfg pm r' cs :
  r_state r = StateFollower -> switch_to_config st r cfg pm = Ok (r', cs) ->
  cs = conf_state cfg /\ r_log r' = r_log r /\ r_state r' = StateFollower /\ t_config (r_trk r') = cfg.
Proof.
  unfold switch_to_config. cbv zeta. intros ST H.
  set (r2 := set_r_is_learner _ _) in H.
  assert (S2 : r_state r2 = StateFollower) by exact ST.
  rewrite S2 in H. cbn [state_type_eqb negb orb] in H. rewrite andb_false_r in H.
  inversion H. subst r' cs. auto.
Qed.

Theorem restore_installs_snapshot st r s r' :
  restore st r s = Ok (r', true) ->
  r_log r' = l_restore (r_log r) s /\
  lview st (r_log r') = mkAbs (s_index s) (s_term s) [] /\
  l_committed (r_log r') = s_index s /\
  confstate_equiv (s_conf s) (conf_state (t_config (r_trk r'))) = true /\
  r_state r' = StateFollower.
Proof.
  unfold restore. intros H.
  destruct (s_index s <=? l_committed (r_log r)); [discriminate|].
  (* on [negb _] as a whole: with [if negb false then do r <- become_follower ..] left in H the
     kernel compares it with a bind by unfolding become_follower *)
  destruct (negb (state_type_eqb (r_state r) StateFollower)) eqn:SF; cbv iota in H.
  { destruct (become_follower st r (r_term r + 1) NoneId); cbn [bind] in H; discriminate. }
  destruct (negb (_ || _)); [discriminate|].
  destruct (l_match_term st (r_log r) (s_index s) (s_term s)).
  { destruct (l_commit_to st (r_log r) (s_index s)); cbn [bind] in H; discriminate. }
  cbv zeta in H.
  match type of H with match ?x with _ => _ end = _ => destruct x as [[cfg pm]|] eqn:CR; [|discriminate] end.
  match type of H with bind ?x _ = _ => destruct x as [[r2 cs2]|] eqn:SW; cbn [bind] in H; [|discriminate] end.
  cbn [fst snd] in H.
  destruct (confstate_equiv (s_conf s) cs2) eqn:CE; [|discriminate]. inversion H; subst r2; clear H.
  assert (ST : r_state r = StateFollower) by (destruct (r_state r); cbn in SF; congruence).
  apply switch_to_config_installs in SW as (-> & L & S' & ->); [|exact ST].
  rewrite L. repeat split; auto.
Qed.

Print Assumptions restore_installs_snapshot.
