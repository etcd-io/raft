(* StreamProofs.v: the apply stream of one node over arbitrary histories (C08).
   CursorProofs.v shows what moves the apply cursor inside raft.go; this file lifts it to the
   RawNode API and to every sequence of inputs of one incarnation:
     - a Ready hands out the consecutive entries right after the cursor and moves the cursor to
       the last of them;
     - Step moves it only forward and only to the index of the acknowledgement it carries
       (entries applied, snapshot installed), Advance only to an acknowledgement queued by the
       last Ready;
     - nothing else moves it.
   Consequences over histories: the batches are ordered and pairwise disjoint (no index is handed
   out twice in an incarnation), and two batches with no acknowledgement above the cursor in
   between are adjacent (gap-free). *)
From Coq Require Import List NArith Bool Lia.
From RaftV Require Import Base Types Quorum Progress Tracker Storage Log Raft RawNode Tactics
     RaftSteps NodeSteps RaftMono RaftRouting NodeProps LogProofs CursorProofs.
Import ListNotations.
Open Scope N_scope.

Definition ncur (rn : rawnode) : N := l_applying (r_log (rn_raft rn)).

Definition pend (rn : rawnode) (i : N) : Prop :=
  exists m, In m (rn_steps_on_advance rn) /\ acks m i.

Definition moved (P : N -> Prop) (a a' : N) : Prop := a' = a \/ (a < a' /\ P a').

Definition rcur_ok (rn : rawnode) : Prop := cur_ok (rn_raft rn).

Lemma promise_no_ack m : is_promise m -> ack_of m = None.
Proof. unfold is_promise, promise_type, ack_of. destruct (m_type m); congruence. Qed.

Lemma api_no_ack m : api_type (m_type m) = true -> ack_of m = None.
Proof. unfold ack_of. destruct (m_type m); solve [reflexivity|discriminate]. Qed.

Section WithStorage.
Variable st : memstorage.

Lemma no_move_eq r r' : no_move r r' -> cur_ok r ->
  cur_ok r' /\ l_applying (r_log r') = l_applying (r_log r).
Proof. intros H O. destruct (H O) as [O' [M|[_ []]]]. auto. Qed.

Lemma step_all_cur ms r r' :
  step_all st r ms = Ok r' -> cur_step (fun i => exists m, In m ms /\ acks m i) r r'.
Proof.
  apply step_all_in; [apply cur_step_refl|apply cur_step_trans|]. intros m a b I S.
  eapply cur_step_weaken; [|exact (steps_cur _ _ _ _ S)]. intros i A. exists m. auto.
Qed.

Definition ready_pre (rn : rawnode) : Prop :=
  ms_wf st /\ u_wf (l_unstable (r_log (rn_raft rn))) /\
  1 <= u_offset (l_unstable (r_log (rn_raft rn))) < two64.

Lemma contig_last i es :
  contig (i + 1) es -> match last_opt es with Some e => e_index e | None => i end = i + nlen es.
Proof.
  intros C. destruct es as [|x xs _] using rev_ind; [cbn; lia|].
  assert (L : last_opt (xs ++ [x]) = Some x) by (unfold last_opt; rewrite rev_unit; reflexivity).
  rewrite L. pose proof (last_opt_index _ _ _ C L). lia.
Qed.

Theorem rn_ready_cur rn rn' rd :
  ready_pre rn -> rn_ready st rn = Ok (rn', rd) -> rcur_ok rn ->
  rcur_ok rn' /\ contig (ncur rn + 1) (rd_committed rd) /\ ncur rn' = ncur rn + nlen (rd_committed rd) /\
  (rd_committed rd <> [] -> ncur rn' <= l_committed (r_log (rn_raft rn))).
Proof.
  intros (WS & WU & OB) H O. destruct (rn_ready_ok _ _ _ _ H) as [ER EA].
  apply ready_without_accept_ok in ER. destruct ER as [ER _].
  destruct (l_next_committed_ents_spec _ _ _ _ WS WU OB ER) as (_ & _ & C & LE & _).
  destruct (accept_ready_raft _ _ _ _ EA) as (_ & _ & _ & AP & CU & _). rewrite (contig_last _ _ C) in CU.
  unfold rcur_ok, cur_ok, ncur in *. rewrite CU, AP.
  split; [lia|]. split; [exact C|]. split; [reflexivity|exact LE].
Qed.

(* what a Ready queues for Advance in the synchronous interface: the acknowledgement of its
   snapshot and of its committed entries, nothing else that could move the cursor *)
Lemma accept_ready_pend rn rd rn' :
  inv_rn rn -> accept_ready st rn rd = Ok rn' -> rn_async rn = false ->
  forall i, pend rn' i ->
    (exists s, rd_snapshot rd = Some s /\ i = s_index s) \/
    (exists e, last_opt (rd_committed rd) = Some e /\ i = e_index e).
Proof.
  intros [_ IM] H AS i (m & I & A). unfold acks, ack_of in A.
  destruct (accept_ready_queue _ _ _ _ _ H I) as [[J _]|[J|[[J S]|(J & E & _)]]].
  - congruence.
  - rewrite Forall_forall in IM. apply IM, promise_no_ack in J. unfold ack_of in J. congruence.
  - left. rewrite J, S in A. destruct (opt_snap_empty _); [discriminate|].
    destruct (rd_snapshot rd) as [s|]; [|discriminate]. injection A as <-. eauto.
  - right. rewrite J, E in A. destruct (last_opt (rd_committed rd)) as [e|]; [|discriminate].
    injection A as <-. eauto.
Qed.

End WithStorage.

Definition cursor_rel (i : ninput) (o : noutput) (rn rn' : rawnode) : Prop :=
  match i with
  | IReady => match o with
              | OReady rd => contig (ncur rn + 1) (rd_committed rd) /\
                             ncur rn' = ncur rn + nlen (rd_committed rd)
              | _ => False
              end
  | IStep m => moved (acks m) (ncur rn) (ncur rn')
  | IAdvance => moved (pend rn) (ncur rn) (ncur rn')
  | _ => ncur rn' = ncur rn
  end.

(* [cur_step P (rn_raft rn) (rn_raft rn')] unfolds to
   [rcur_ok rn -> rcur_ok rn' /\ moved P (ncur rn) (ncur rn')]. *)
Lemma rn_call_cursor st i out rn rn' :
  rcur_ok rn -> (i = IReady -> ready_pre st rn) -> rn_call st i out rn rn' ->
  rcur_ok rn' /\ cursor_rel i out rn rn'.
Proof.
  intros O RP C.
  destruct C as [rn' -> _ H| -> _|m rn' e -> _ H|m rn' e A _ TA _ H|cc rn' cs -> _ H|rn' rd -> -> H| -> _|rn' -> _ H].
  - destruct (rn_tick_ok _ _ _ H) as (r & E & ->). exact (no_move_eq _ _ (tick_cur _ _ _ E) O).
  - exact (conj O eq_refl).
  - destruct (rn_step_ok _ _ _ _ _ H) as [->|H1]; [exact (cur_step_refl _ _ O)|].
    destruct (rn_raft_step_ok _ _ _ _ _ H1) as (r & E & ->). exact (step_cur _ _ _ _ _ E O).
  - destruct (rn_raft_step_ok _ _ _ _ _ H) as (r & E & ->).
    pose proof (no_move_eq _ _ (step_no_ack _ _ _ _ _ (api_no_ack _ TA) E) O) as M.
    destruct i; try discriminate A; exact M.
  - destruct (rn_apply_conf_change_ok _ _ _ _ _ H) as (r & E & ->).
    apply (apply_conf_change_raft_steps st leave_joint_prop) in E.
    exact (no_move_eq _ _ (steps_no_ack _ leave_joint_prop _ _ eq_refl E) O).
  - destruct (rn_ready_cur _ _ _ _ (RP eq_refl) H O) as (O' & C & M & _). exact (conj O' (conj C M)).
  - exact (conj O eq_refl).
  - destruct (rn_advance_ok _ _ _ H) as (r & E & ->). exact (step_all_cur _ _ _ _ E O).
Qed.

Theorem node_step_cursor n i d n' out rn :
  n_rn n = Some rn -> rcur_ok rn -> same_incarnation i = true ->
  (i = IReady -> ready_pre (n_st n) rn) ->
  node_step n i d = Ok (n', out) ->
  exists rn', n_rn n' = Some rn' /\ rcur_ok rn' /\ cursor_rel i out rn rn'.
Proof.
  intros Hrn O SI RP H.
  destruct (node_step_running _ _ _ _ _ _ Hrn SI H) as [[S E]|(rn' & E' & C)].
  - exists rn. split; [exact E|]. split; [exact O|].
    destruct i; try discriminate S; reflexivity.
  - (* [with_draws] leaves the log and the queue alone: what [rn_call_cursor] says of
       [with_draws rn d] is the goal about [rn] up to conversion *)
    exists rn'. split; [exact E'|].
    exact (rn_call_cursor _ _ _ (with_draws rn d) _ O RP C).
Qed.

Definition ncursor (n : nstate) : N := match n_rn n with Some rn => ncur rn | None => 0 end.
Definition running_ok (n : nstate) : Prop := exists rn, n_rn n = Some rn /\ rcur_ok rn.

(* one recorded step: the state it was taken in, the input, the draws, the output *)
Definition tstep := (nstate * ninput * list N * noutput)%type.

(* a history of one incarnation; every Ready is taken in a state whose log is well formed
   (consecutive indexes in storage and in the unstable tail: C18) *)
Inductive nrun : nstate -> list tstep -> nstate -> Prop :=
| nrun_nil n : nrun n [] n
| nrun_cons n i d o n1 tr n2 :
    node_step n i d = Ok (n1, o) -> same_incarnation i = true ->
    (i = IReady -> forall rn, n_rn n = Some rn -> ready_pre (n_st n) rn) ->
    nrun n1 tr n2 -> nrun n ((n, i, d, o) :: tr) n2.

Definition batch_of (x : tstep) : list entry :=
  let '(_, i, _, o) := x in
  match i, o with
  | IReady, OReady rd => rd_committed rd
  | _, _ => []
  end.

Lemma contig_in_range i es e : contig i es -> In e es -> i <= e_index e < i + nlen es.
Proof.
  intros C Hin. apply In_nth_error in Hin. destruct Hin as [k K]. rewrite (contig_nth _ _ _ _ C K).
  assert (k < length es)%nat by (apply nth_error_Some; congruence). unfold nlen. lia.
Qed.

Lemma moved_le P a a' : moved P a a' -> a <= a'.
Proof. unfold moved. intros [M|[M _]]; lia. Qed.

Lemma nrun_step_facts n i d o n1 :
  node_step n i d = Ok (n1, o) -> same_incarnation i = true ->
  (i = IReady -> forall rn, n_rn n = Some rn -> ready_pre (n_st n) rn) ->
  running_ok n ->
  running_ok n1 /\ ncursor n <= ncursor n1 /\
  (forall e, In e (batch_of (n, i, d, o)) -> ncursor n < e_index e <= ncursor n1).
Proof.
  intros H SI RP (rn & Hrn & O).
  destruct (node_step_cursor _ _ _ _ _ _ Hrn O SI (fun Ei => RP Ei _ Hrn) H) as (rn1 & H1 & O1 & R).
  split; [exists rn1; auto|]. unfold ncursor. rewrite Hrn, H1.
  destruct i; cbn [cursor_rel batch_of] in *; try discriminate SI;
    try (split; [lia|intros e0 []]);
    try (split; [eapply moved_le; eassumption|intros e0 []]).
  destruct o; try contradiction. destruct R as [C M]. split; [lia|].
  intros e Hin. pose proof (contig_in_range _ _ _ C Hin). lia.
Qed.

Theorem nrun_bounds n tr n' :
  nrun n tr n' -> running_ok n ->
  running_ok n' /\ ncursor n <= ncursor n' /\
  (forall x, In x tr -> forall e, In e (batch_of x) -> ncursor n < e_index e <= ncursor n').
Proof.
  induction 1 as [n|n i d o n1 tr n2 H SI RP R IH]; intros OK.
  - split; [exact OK|]. split; [lia|]. intros x [].
  - destruct (nrun_step_facts _ _ _ _ _ H SI RP OK) as (OK1 & L1 & B1).
    destruct (IH OK1) as (OK2 & L2 & B2).
    split; [exact OK2|]. split; [lia|].
    intros x [Hx|Hx] e He.
    + subst x. specialize (B1 _ He). lia.
    + specialize (B2 _ Hx _ He). lia.
Qed.

Lemma nrun_app_inv n a b n' : nrun n (a ++ b) n' -> exists nm, nrun n a nm /\ nrun nm b n'.
Proof.
  revert n. induction a as [|x a IH]; intros n H; cbn in H.
  - exists n. split; [constructor|exact H].
  - inversion H as [|? i d o n1 ? ? H1 SI RP R]; subst.
    destruct (IH _ R) as (nm & Ra & Rb). exists nm. split; [|exact Rb].
    econstructor; eassumption.
Qed.

(* exactly-once and ordered: an entry handed out later in the incarnation has a larger index than
   every entry handed out before *)
Theorem apply_stream_exactly_once n tr1 x tr2 n' :
  nrun n (tr1 ++ x :: tr2) n' -> running_ok n ->
  forall y, In y tr2 -> forall e1 e2, In e1 (batch_of x) -> In e2 (batch_of y) ->
  e_index e1 < e_index e2.
Proof.
  intros R OK y Hy e1 e2 H1 H2.
  destruct (nrun_app_inv _ _ _ _ R) as (nm & Ra & Rb).
  destruct (nrun_bounds _ _ _ Ra OK) as (OKm & _ & _).
  inversion Rb as [|? i d o n1 ? ? Hs SI RP R2]; subst.
  destruct (nrun_step_facts _ _ _ _ _ Hs SI RP OKm) as (OK1 & _ & B1).
  destruct (nrun_bounds _ _ _ R2 OK1) as (_ & _ & B2).
  specialize (B1 _ H1). specialize (B2 _ Hy _ H2). lia.
Qed.

Definition quiet (x : tstep) : Prop :=
  let '(n, i, _, _) := x in
  match i with
  | IStep m => forall j, acks m j -> j <= ncursor n
  | IAdvance => forall rn, n_rn n = Some rn -> forall j, pend rn j -> j <= ncur rn
  | IReady => batch_of x = []
  | _ => True
  end.

Lemma quiet_step n i d o n1 :
  node_step n i d = Ok (n1, o) -> same_incarnation i = true ->
  (i = IReady -> forall rn, n_rn n = Some rn -> ready_pre (n_st n) rn) ->
  running_ok n -> quiet (n, i, d, o) -> ncursor n1 = ncursor n.
Proof.
  intros H SI RP (rn & Hrn & O) Q.
  destruct (node_step_cursor _ _ _ _ _ _ Hrn O SI (fun Ei => RP Ei _ Hrn) H) as (rn1 & H1 & O1 & R).
  unfold ncursor in *. rewrite Hrn in *. rewrite H1.
  destruct i; cbn [cursor_rel quiet batch_of] in *; try discriminate SI; try exact R.
  - destruct R as [R|[L A]]; [exact R|]. specialize (Q _ A). unfold ncursor in Q. rewrite Hrn in Q. lia.
  - destruct o; try contradiction. destruct R as [_ M]. rewrite Q in M. cbn in M. lia.
  - destruct R as [R|[L A]]; [exact R|]. specialize (Q _ Hrn _ A). lia.
Qed.

Theorem quiet_keeps_cursor n tr n' :
  nrun n tr n' -> running_ok n -> Forall quiet tr -> ncursor n' = ncursor n.
Proof.
  induction 1 as [n|n i d o n1 tr n2 H SI RP R IH]; intros OK Q; [reflexivity|].
  inversion Q as [|? ? Q1 Q2]; subst.
  destruct (nrun_step_facts _ _ _ _ _ H SI RP OK) as (OK1 & _ & _).
  rewrite (IH OK1 Q2). eapply quiet_step; eassumption.
Qed.

(* gap-free: a batch starts right after the previous one when nothing in between acknowledged an
   index above the cursor (the only such acknowledgement a contract-following application produces
   is the one of an installed snapshot) *)
Theorem apply_stream_gap_free n dx rdx mid ny dy rdy rest n' :
  nrun n ((n, IReady, dx, OReady rdx) :: mid ++ (ny, IReady, dy, OReady rdy) :: rest) n' ->
  running_ok n -> Forall quiet mid ->
  contig (ncursor n + nlen (rd_committed rdx) + 1) (rd_committed rdy).
Proof.
  intros R OK Q.
  inversion R as [|? i d o n1 ? ? Hs SI RP R1]; subst.
  destruct OK as (rn & Hrn & O).
  destruct (node_step_cursor _ _ _ _ _ _ Hrn O SI (fun Ei => RP Ei _ Hrn) Hs) as (rn1 & H1 & O1 & Cx).
  cbn [cursor_rel] in Cx. destruct Cx as [_ Mx].
  assert (OK1 : running_ok n1) by (exists rn1; auto).
  destruct (nrun_app_inv _ _ _ _ R1) as (nm & Ra & Rb).
  pose proof (quiet_keeps_cursor _ _ _ Ra OK1 Q) as Em.
  destruct (nrun_bounds _ _ _ Ra OK1) as ((rnm & Hm & Om) & _ & _).
  inversion Rb as [|? i d o n2 ? ? Hy SIy RPy R2]; subst.
  destruct (node_step_cursor _ _ _ _ _ _ Hm Om SIy (fun Ei => RPy Ei _ Hm) Hy) as (rn2 & H2 & O2 & Cy).
  cbn [cursor_rel] in Cy. destruct Cy as [Cy _].
  unfold ncursor in *. rewrite Hrn. rewrite H1, Hm in Em. rewrite Em, Mx in Cy. exact Cy.
Qed.

(* a new incarnation starts with the cursor at the configured applied index, or at the snapshot
   the storage starts from when none is configured (a configured index below that snapshot is
   refused) *)
Theorem new_rawnode_cursor st c d rn :
  new_rawnode st c d = Ok rn ->
  rcur_ok rn /\ ncur rn = N.max (ms_first_index st - 1) (cfg_applied c).
Proof.
  unfold new_rawnode. intros H. apply bind_ok in H. destruct H as (r & ER & H). injection H as <-.
  unfold rcur_ok, ncur, cur_ok. cbn [rn_raft].
  destruct (new_raft_ok _ _ _ _ ER) as (mu & mc & mb & cfg & pm & lrn & h & l & _ & _ & _ & L & F).
  apply become_follower_cur in F. destruct F as [A B]. rewrite A, B. cbn [new_raft_state r_log].
  destruct L as [[Z ->]|L]; [rewrite Z; cbn; split; lia|].
  destruct (l_applied_to_cur _ _ _ _ L) as [A3 B3]. rewrite A3, B3. cbn. split; lia.
Qed.

(* recorded histories, for concrete executions (StreamEx.v) *)

Fixpoint node_trace (n : nstate) (ins : list (ninput * list N)) : res (list tstep * nstate) :=
  match ins with
  | [] => Ok ([], n)
  | (i, d) :: rest =>
      do x <- node_step n i d;
      do y <- node_trace (fst x) rest;
      Ok ((n, i, d, snd x) :: fst y, snd y)
  end.

Definition ready_pre_at (x : tstep) : Prop :=
  let '(n, i, _, _) := x in
  i = IReady -> forall rn, n_rn n = Some rn -> ready_pre (n_st n) rn.

Lemma node_trace_nrun ins : forall n tr n',
  node_trace n ins = Ok (tr, n') ->
  Forall (fun id => same_incarnation (fst id) = true) ins ->
  Forall ready_pre_at tr -> nrun n tr n'.
Proof.
  induction ins as [|[i d] ins IH]; intros n tr n' H SI RP; cbn in H.
  - inversion H; subst. constructor.
  - destruct (node_step n i d) as [[n1 o]|] eqn:E; cbn [bind] in H; [|discriminate]. cbn [fst snd] in H.
    destruct (node_trace n1 ins) as [[tr1 n2]|] eqn:E1; cbn [bind] in H; [|discriminate].
    inversion H; subst; clear H. cbn [fst snd] in *.
    inversion SI as [|? ? S1 S2]; subst. inversion RP as [|? ? R1 R2]; subst.
    econstructor; [exact E|exact S1|exact R1|]. apply IH; assumption.
Qed.
