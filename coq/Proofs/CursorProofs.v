(* CursorProofs.v: the apply cursor of a node (raftLog.applying, raftLog.applied) under every
   function of raft.go, for every input.  The cursor is moved by exactly two things:
   accepting a Ready (to the last committed entry handed out; that is rawnode.go, StreamProofs.v)
   and an acknowledgement that the storage threads step into the node (MsgStorageApplyResp:
   entries applied; MsgStorageAppendResp with a snapshot: snapshot installed).  Everything else,
   including every message from another node, every tick, proposal and configuration change,
   leaves it where it is: of the primitive updates of RaftSteps.v only appliedTo touches the
   cursor ([prim_cur]).  Basis of the stream clauses of C08 (ordered, gap-free, exactly-once
   within an incarnation). *)
From Coq Require Import List NArith Bool Lia.
From RaftV Require Import Base Types Quorum Progress Tracker Storage Log Raft RaftSteps.
Import ListNotations.
Open Scope N_scope.

Definition same_cur (r r' : raft) : Prop :=
  l_applying (r_log r') = l_applying (r_log r) /\ l_applied (r_log r') = l_applied (r_log r).

Lemma same_cur_refl r : same_cur r r.
Proof. unfold same_cur; auto. Qed.
Lemma same_cur_trans a b c : same_cur a b -> same_cur b c -> same_cur a c.
Proof. unfold same_cur. intuition congruence. Qed.

Lemma same_log_cur r r' : r_log r' = r_log r -> same_cur r r'.
Proof. unfold same_cur. intros E. rewrite E. auto. Qed.

Lemma clear_recent_active_cur r : same_cur r (clear_recent_active r).
Proof. apply same_log_cur. reflexivity. Qed.

Definition lcur (l l' : raftlog) : Prop :=
  l_applying l' = l_applying l /\ l_applied l' = l_applied l.

Lemma lcur_trans a b c : lcur a b -> lcur b c -> lcur a c.
Proof. unfold lcur. intuition congruence. Qed.
Lemma lcur_refl a : lcur a a.
Proof. unfold lcur; auto. Qed.

Lemma l_restore_cur l s : lcur l (l_restore l s).
Proof. unfold l_restore, lcur. cbn. auto. Qed.

Lemma l_stable_to_cur l i t : lcur l (l_stable_to l i t).
Proof. unfold l_stable_to, l_with_unstable, lcur. cbn. auto. Qed.

Lemma l_stable_snap_to_cur l i : lcur l (l_stable_snap_to l i).
Proof. unfold l_stable_snap_to, l_with_unstable, lcur. cbn. auto. Qed.

Lemma l_applied_to_cur l i s l' :
  l_applied_to l i s = Ok l' -> l_applying l' = N.max (l_applying l) i /\ l_applied l' = i.
Proof. unfold l_applied_to. intros H. destruct (_ || _); [discriminate|]. inversion H. auto. Qed.

Definition cur_ok (r : raft) : Prop := l_applied (r_log r) <= l_applying (r_log r).

Definition cur_step (P : N -> Prop) (r r' : raft) : Prop :=
  cur_ok r ->
  cur_ok r' /\
  (l_applying (r_log r') = l_applying (r_log r) \/
   (l_applying (r_log r) < l_applying (r_log r') /\ P (l_applying (r_log r')))).

Lemma same_cur_step P r r' : same_cur r r' -> cur_step P r r'.
Proof. unfold same_cur, cur_step, cur_ok. intros [A B] O. rewrite A, B. auto. Qed.

Lemma cur_step_refl P r : cur_step P r r.
Proof. apply same_cur_step, same_cur_refl. Qed.

Lemma cur_step_trans P a b c : cur_step P a b -> cur_step P b c -> cur_step P a c.
Proof.
  unfold cur_step. intros H1 H2 O. destruct (H1 O) as [O1 M1]. destruct (H2 O1) as [O2 M2].
  split; [exact O2|].
  destruct M1 as [M1|[L1 P1]], M2 as [M2|[L2 P2]].
  - left. congruence.
  - right. rewrite <- M1. auto.
  - right. rewrite M2. auto.
  - right. split; [lia|exact P2].
Qed.

Lemma cur_step_weaken (P Q : N -> Prop) r r' : (forall i, P i -> Q i) -> cur_step P r r' -> cur_step Q r r'.
Proof.
  unfold cur_step. intros PQ H O. destruct (H O) as [O1 [M|[L Pi]]]; split; auto.
Qed.

(* the index an acknowledgement from the storage threads carries: the last applied entry, or the
   installed snapshot *)
Definition ack_of (m : message) : option N :=
  match m_type m with
  | MsgStorageApplyResp => option_map e_index (last_opt (m_entries m))
  | MsgStorageAppendResp => option_map s_index (m_snapshot m)
  | _ => None
  end.

Definition acks (m : message) (i : N) : Prop := ack_of m = Some i.

(* [prim] states the guard of P_applied by itself: RaftSteps.v does not depend on this file *)
Lemma ack_applied_acks m i : ack_applied m i -> acks m i.
Proof. unfold ack_applied, acks, ack_of. destruct (m_type m); intros H; solve [exact H | destruct H]. Qed.

Definition no_move : raft -> raft -> Prop := cur_step (fun _ => False).

Lemma no_move_trans a b c : no_move a b -> no_move b c -> no_move a c.
Proof. apply cur_step_trans. Qed.

Lemma no_ack_step P m r r' : ack_of m = None -> cur_step (acks m) r r' -> cur_step P r r'.
Proof. intros A. apply cur_step_weaken. unfold acks. intros i Hi. congruence. Qed.

Lemma tick_msg_no_ack m : tick_msg m -> ack_of m = None.
Proof. intros (t & id & E & [T|[T|T]]); subst; reflexivity. Qed.

Section WithStorage.
Variable st : memstorage.

Lemma reset_cur r term r' : reset st r term = Ok r' -> same_cur r r'.
Proof. intros H. apply same_log_cur. apply (reset_keeps _ _ _ _ H). Qed.

Lemma become_follower_cur r term lead r' : become_follower st r term lead = Ok r' -> same_cur r r'.
Proof.
  intros H. destruct (become_follower_eq _ _ _ _ _ H) as (r1 & ER & ->). exact (reset_cur _ _ _ ER).
Qed.

Lemma prim_cur m r r' : prim st m r r' -> cur_step (acks m) r r'.
Proof.
  intros P. destruct P; try solve [apply same_cur_step, same_log_cur; reflexivity].
  - apply same_cur_step, same_log_cur, emit_keeps. exact Em.
  - apply same_cur_step. exact (proj2 Lg).
  - (* appliedTo sets applied to j = max(i, applied) and applying to max(applying, j); a j above
       applying is not the applied index, which the order of the cursors keeps at or below
       applying, so it is i, and then i is the acknowledged index *)
    destruct (l_applied_to_cur _ _ _ _ Ap) as [A B]. intros O. unfold cur_ok in *. cbn.
    rewrite A, B. split; [lia|].
    destruct (N.le_gt_cases i (l_applying (r_log r))) as [L|L]; [left; lia|right].
    replace (N.max _ _) with i by lia. split; [exact L|].
    destruct Ak as [K|K]; [exact (ack_applied_acks _ _ K)|lia].
  - apply same_cur_step. eapply become_follower_cur. exact Bf.
  - destruct (become_candidate_eq _ _ _ Bc) as (r1 & ER & ->).
    apply same_cur_step. exact (reset_cur _ _ _ ER).
  - rewrite (become_pre_candidate_eq _ _ Bp). apply same_cur_step, same_log_cur. reflexivity.
  - apply same_cur_step. exact (reset_cur _ _ _ Rs).
Qed.

Lemma prim_leave_joint_cur P r r' : prim st leave_joint_prop r r' -> cur_step P r r'.
Proof. intros H. apply (no_ack_step P leave_joint_prop); [reflexivity|apply prim_cur, H]. Qed.

Lemma steps_cur m r r' : steps st m r r' -> cur_step (acks m) r r'.
Proof.
  apply steps_in; [apply cur_step_refl|apply cur_step_trans|apply prim_cur|apply prim_leave_joint_cur].
Qed.

(* Every message, of any type, term and content: the applying cursor stays, or moves forward to
   the index the message acknowledges. *)
Theorem step_cur r m r' e : step st r m = Ok (r', e) -> cur_step (acks m) r r'.
Proof. intros H. eapply steps_cur, step_steps, H. Qed.

Lemma steps_no_ack m r r' : ack_of m = None -> steps st m r r' -> no_move r r'.
Proof. intros A H. eapply no_ack_step; [exact A|apply steps_cur, H]. Qed.

Lemma step_no_ack r m r' e : ack_of m = None -> step st r m = Ok (r', e) -> no_move r r'.
Proof. intros A H. eapply steps_no_ack, step_steps, H. exact A. Qed.

Theorem tick_cur r r' : tick st r = Ok r' -> no_move r r'.
Proof.
  intros H. apply tick_ticks in H. revert H.
  apply tsteps_in; [apply cur_step_refl|exact no_move_trans| | |apply prim_leave_joint_cur].
  - intros a v. apply same_cur_step, same_log_cur. reflexivity.
  - intros m a b M P. apply (no_ack_step _ m); [apply tick_msg_no_ack, M|apply prim_cur, P].
Qed.

End WithStorage.
