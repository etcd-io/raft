(* RaftRouting.v: for every function of raft.go and every input,
   - the static configuration of the node (id, limits, feature flags, timeouts) is unchanged,
   - the outgoing queue [msgs] only grows, by messages that are not promises,
   - the after-append queue [msgsAfterAppend] only grows, by promise messages
     (MsgAppResp, MsgVoteResp, MsgPreVoteResp).
   [send] decides the queue by the type of the message alone, and nothing else touches a queue or
   a static field: every primitive update of RaftSteps satisfies the relation, hence every function.
   This is the routing half of C05; NodeProps.v keeps the second half of its invariant [inv_rn] (only
   promises wait in msgsAfterAppend) with it (C07). *)
From Coq Require Import List NArith Bool Lia.
From RaftV Require Import Base Types Quorum Progress Tracker Storage Log Raft RawNode Tactics RaftSteps.
Import ListNotations.
Open Scope N_scope.

Definition promise_type (t : msg_type) : bool :=
  match t with MsgAppResp | MsgVoteResp | MsgPreVoteResp => true | _ => false end.

Definition statics (r : raft) :=
  (r_id r, r_max_msg_size r, r_max_uncommitted_size r, r_check_quorum r, r_pre_vote r,
   r_heartbeat_timeout r, r_election_timeout r, r_disable_proposal_forwarding r,
   r_step_down_on_removal r, r_disable_cc_validation r, ro_option (r_read_only r),
   t_max_inflight (r_trk r), t_max_inflight_bytes (r_trk r)).

Definition not_promise (m : message) : Prop := promise_type (m_type m) = false.
Definition is_promise (m : message) : Prop := promise_type (m_type m) = true.

Definition ext (r r' : raft) : Prop :=
  statics r' = statics r /\
  (exists l, r_msgs r' = r_msgs r ++ l /\ Forall not_promise l) /\
  (exists l, r_msgs_after_append r' = r_msgs_after_append r ++ l /\ Forall is_promise l).

Lemma ext_trans a b c : ext a b -> ext b c -> ext a c.
Proof.
  unfold ext. intros (S1 & (l1 & M1 & F1) & (k1 & A1 & G1)) (S2 & (l2 & M2 & F2) & (k2 & A2 & G2)).
  split; [congruence|]. split.
  - exists (l1 ++ l2). rewrite M2, M1, app_assoc. split; [reflexivity|]. apply Forall_app; auto.
  - exists (k1 ++ k2). rewrite A2, A1, app_assoc. split; [reflexivity|]. apply Forall_app; auto.
Qed.

Lemma ext_frame r r' :
  statics r' = statics r -> r_msgs r' = r_msgs r -> r_msgs_after_append r' = r_msgs_after_append r ->
  ext r r'.
Proof.
  intros S M A. unfold ext. split; [exact S|]. split; exists []; rewrite app_nil_r; auto.
Qed.

Lemma ext_refl r : ext r r.
Proof. apply ext_frame; reflexivity. Qed.

Lemma clear_recent_active_ext r : ext r (clear_recent_active r).
Proof. apply ext_frame; reflexivity. Qed.

(* the message [send] queues: the sender is filled in, and so is the term of a message that is not of
   the vote family and goes to another node *)
Definition stamped (r : raft) (m : message) : message :=
  let m := if N.eqb (m_from m) NoneId then set_from m (r_id r) else m in
  if is_vote_family (m_type m) then m else
  match m_type m with MsgProp | MsgReadIndex => m | _ => set_term m (r_term r) end.

Lemma stamped_type r m : m_type (stamped r m) = m_type m.
Proof.
  unfold stamped. destruct (N.eqb _ _); cbn [m_type set_from]; destruct (m_type m) eqn:T; cbn; rewrite ?T; reflexivity.
Qed.

Lemma send_eq r m r' :
  send r m = Ok r' ->
  r' = if promise_type (m_type m)
       then set_r_msgs_after_append r (r_msgs_after_append r ++ [stamped r m])
       else set_r_msgs r (r_msgs r ++ [stamped r m]).
Proof.
  unfold send. intros H. apply bind_ok in H. destruct H as (m1 & E & H).
  assert (M : m1 = stamped r m).
  { unfold stamped. revert E. cbv zeta. generalize (if N.eqb (m_from m) NoneId then set_from m (r_id r) else m).
    intros m0 E. destruct (is_vote_family _); [destruct (N.eqb _ 0)|destruct (negb _); [|destruct (m_type m0)]];
      (discriminate E || (injection E as <-; reflexivity)). }
  clear E. subst m1. rewrite stamped_type in H.
  destruct (m_type m); cbn [promise_type]; inv_ok; reflexivity.
Qed.

Lemma send_ext r m r' : send r m = Ok r' -> ext r r'.
Proof.
  intros H. rewrite (send_eq _ _ _ H).
  assert (P : promise_type (m_type (stamped r m)) = promise_type (m_type m)) by (rewrite stamped_type; reflexivity).
  destruct (promise_type (m_type m)); (split; [reflexivity|]).
  - split; [exists []; split; [symmetry; apply app_nil_r|constructor]|].
    exists [stamped r m]. split; [reflexivity|]. constructor; [exact P|constructor].
  - split; [|exists []; split; [symmetry; apply app_nil_r|constructor]].
    exists [stamped r m]. split; [reflexivity|]. constructor; [exact P|constructor].
Qed.

Lemma emit_ext r r' : emit r r' -> ext r r'.
Proof.
  destruct 1 as [m r' H _| |ro H|r' H].
  - eapply send_ext. exact H.
  - apply ext_frame; reflexivity.
  - apply ext_frame; [unfold statics; cbn; rewrite H|..]; reflexivity.
  - rewrite H. apply ext_frame; reflexivity.
Qed.

Section WithStorage.
Variable st : memstorage.

Lemma reset_ext r term r' : reset st r term = Ok r' -> ext r r'.
Proof.
  intros H. destruct (reset_eq _ _ _ _ H) as (d & ds & _ & E). rewrite E. apply ext_frame; reflexivity.
Qed.

Lemma become_follower_ext r term lead r' : become_follower st r term lead = Ok r' -> ext r r'.
Proof.
  intros H. destruct (become_follower_eq _ _ _ _ _ H) as (r1 & ER & ->).
  eapply ext_trans; [eapply reset_ext; exact ER|apply ext_frame; reflexivity].
Qed.

Lemma prim_ext m r r' : prim st m r r' -> ext r r'.
Proof.
  destruct 1; try solve [apply ext_frame; reflexivity].
  - apply emit_ext. exact Em.
  - eapply become_follower_ext. exact Bf.
  - destruct (become_candidate_eq _ _ _ Bc) as (r1 & ER & ->).
    eapply ext_trans; [eapply reset_ext; exact ER|apply ext_frame; reflexivity].
  - rewrite (become_pre_candidate_eq _ _ Bp). apply ext_frame; reflexivity.
  - eapply ext_trans; [eapply reset_ext; exact Rs|apply ext_frame; reflexivity].
Qed.

Lemma steps_ext m r r' : steps st m r r' -> ext r r'.
Proof. apply steps_in; [exact ext_refl|exact ext_trans| |]; intros a b; apply prim_ext. Qed.

(* For every message whatsoever: promises go only to msgsAfterAppend, never to msgs. *)
Theorem step_ext r m r' e : step st r m = Ok (r', e) -> ext r r'.
Proof. intros H. eapply steps_ext, step_steps. exact H. Qed.

Lemma tick_ext r r' : tick st r = Ok r' -> ext r r'.
Proof.
  intros H. apply tick_ticks in H. revert H.
  apply tsteps_in; [exact ext_refl|exact ext_trans|intros; apply ext_frame; reflexivity| |].
  - intros m a b _. apply prim_ext.
  - intros a b. apply prim_ext.
Qed.

Lemma handle_snapshot_ext r m r' : handle_snapshot st r m = Ok r' -> ext r r'.
Proof. intros H. eapply (steps_ext m), handle_snapshot_steps. exact H. Qed.

Lemma apply_conf_change_raft_ext r cc r' cs : apply_conf_change_raft st r cc = Ok (r', cs) -> ext r r'.
Proof. intros H. eapply (steps_ext leave_joint_prop), apply_conf_change_raft_steps. exact H. Qed.

End WithStorage.
