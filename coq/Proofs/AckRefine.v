(* AckRefine.v: a persistence acknowledgement (raftLog.stableTo) never changes the logical log, given
   what the Ready contract provides: the acknowledged entries are in stable storage. *)
From Coq Require Import List NArith Bool Lia Arith.
From RaftV Require Import ListFacts Base Types Storage Log Tactics LogProofs AppendRefine.
Import ListNotations.
Open Scope N_scope.

Lemma cut_move {A} (l : list A) : forall n p es,
  (forall k e, (k < n)%nat -> nth_error es k = Some e -> nth_error l (p + k) = Some e) -> (n <= length es)%nat ->
  firstn (p + n) l ++ skipn n es = firstn p l ++ es.
Proof.
  induction n as [|n IH]; intros p es H L; [rewrite Nat.add_0_r; reflexivity|].
  destruct es as [|e es]; [cbn in L; lia|]. cbn [skipn length] in *.
  rewrite <- Nat.add_succ_comm, IH; [|intros k x K NK; rewrite Nat.add_succ_comm; apply (H (S k)); [lia|exact NK]|lia].
  specialize (H 0%nat e ltac:(lia) eq_refl). rewrite Nat.add_0_r in H. apply skipn_nth_error_cons in H as [t H].
  change (S p) with (1 + p)%nat. rewrite Nat.add_comm, firstn_add, H, <- app_assoc. reflexivity.
Qed.

Theorem stable_to_keeps_view st l index term :
  l_wf st l -> u_snapshot (l_unstable l) = None ->
  (* the Ready contract: the entries up to [index] that the node still holds as unstable are what
     stable storage holds at those indexes, and storage ends at [index] if that is the node's last *)
  (forall k e, nth_error (u_entries (l_unstable l)) k = Some e -> u_offset (l_unstable l) + N.of_nat k <= index ->
     nth_error (ms_ents st) (N.to_nat (u_offset (l_unstable l) + N.of_nat k - ms_dummy_index st - 1)) = Some e) ->
  (u_offset (l_unstable l) + nlen (u_entries (l_unstable l)) = index + 1 -> ms_last_index st = index) ->
  l_wf st (l_stable_to l index term) /\ lview st (l_stable_to l index term) = lview st l.
Proof.
  intros W SN ST LAST. pose proof W as (M & U & _).
  destruct (lview_cases st l W) as [(s & SS & _)|(_ & R & V)]; [congruence|].
  destruct (u_stable_to_spec (l_unstable l) index term U) as (U' & S' & [EQ|(OI & (e & NE & _) & O' & E' & _)]).
  { unfold l_stable_to. rewrite EQ. destruct l; split; [exact W|reflexivity]. }
  pose proof (ST _ _ NE ltac:(lia)) as K. apply nth_error_nlen in K, NE.
  assert (W' : l_wf st (l_stable_to l index term)).
  { refine (conj M (conj U' _)). cbn [l_stable_to l_with_unstable l_unstable]. rewrite S', SN, O', E'.
    unfold ms_last_index in *. split; [lia|]. intros EN.
    assert (Z : nlen (skipn (N.to_nat (index + 1 - u_offset (l_unstable l))) (u_entries (l_unstable l))) = 0) by (rewrite EN; reflexivity).
    rewrite nlen_skipn in Z. lia. }
  split; [exact W'|].
  destruct (lview_cases st _ W') as [(s & SS & _)|(_ & _ & ->)]; cbn [l_stable_to l_with_unstable l_unstable] in *; [congruence|].
  rewrite V, O', E'. unfold a_splice. f_equal. cbn [abs_ms a_base a_ents] in *.
  replace (N.to_nat (index + 1 - ms_dummy_index st - 1))
    with (N.to_nat (u_offset (l_unstable l) - ms_dummy_index st - 1) + N.to_nat (index + 1 - u_offset (l_unstable l)))%nat by lia.
  apply cut_move; [|rewrite length_nlen; lia]. intros k x KL NK. rewrite <- (ST k x NK) by lia. f_equal. lia.
Qed.

Print Assumptions stable_to_keeps_view.
