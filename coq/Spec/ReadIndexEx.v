(* ReadIndexEx.v: the hypotheses of the protocol-level ReadIndex theorem are satisfiable: the
   execution of SafetyEx (election, replication, a crash, commit) followed by a read request at the
   leader and heartbeat answers from a majority. *)
From Coq Require Import List NArith Bool Lia Arith.
From RaftV Require Import LogMatching Safety SafetyEx ReadIndex.
Import ListNotations.
Local Open Scope N_scope.

Example read_index_nonvacuous :
  exists p r, rreach vs3 [] p /\ In r (snd p) /\ majority vs3 [] (has_acker r) /\ rd_c0 r <> [].
Proof.
  destruct (committed_run vs3 [] eq_refl) as (s & R & T1 & T2 & LD & HC & _).
  (* the leader takes a read request; nodes 1 and 2 answer the heartbeat *)
  assert (Q := rreach_step vs3 [] _ _ (sreach_rreach vs3 [] s R) (RRequest vs3 [] s [] 1 1 0%nat (1, 7) T1 LD HC)).
  assert (H1 := rreach_step vs3 [] _ _ Q (RHeartbeatAck vs3 [] s [] (mkRead 1 (commits s) (tm s) []) [] 1 T1)).
  assert (H2 := rreach_step vs3 [] _ _ H1 (RHeartbeatAck vs3 [] s [] (mkRead 1 (commits s) (tm s) [1]) [] 2 T2)).
  eexists. eexists. split; [exact H2|]. split; [left; reflexivity|]. split; [reflexivity|].
  cbn. intros E. rewrite E in HC. destruct HC.
Qed.

Print Assumptions read_index_nonvacuous.
