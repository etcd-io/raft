(* SafetyEx.v: the hypotheses of the safety theorems are satisfiable: a concrete execution of
   three voters that elects a leader, replicates and commits an entry, and hands it to the state
   machine on two nodes. *)
From Coq Require Import List NArith Bool Lia Arith.
From RaftV Require Import LogMatching Safety.
Import ListNotations.
Local Open Scope N_scope.

Definition vs3 : list N := [1; 2; 3].
Definition s0 : sstate := mkS (mkG (fun _ => []) (fun _ => false)) (fun _ => 0) [] [] (fun _ => []) (fun _ => None) [] (fun _ => false).

Ltac dec := cbv; try congruence; try reflexivity; try lia.

(* One run serves the examples of this file, of SafetyJointEx.v and of ReadIndexEx.v.  It is a run
   of every configuration in which nodes 1, 2 and 4 together are a quorum: {1,2,3} alone (node 4
   is then a bystander whose vote and acknowledgement do not count) as well as the joint
   configuration of {1,2,3} and {1,4,5}. *)
Lemma committed_run vs vo :
  majority vs vo (fun q => N.eqb q 1 || N.eqb q 2 || N.eqb q 4) ->
  exists s, sreach vs vo s /\ tm s 1 = 1 /\ tm s 2 = 1 /\ ldr s 1 = Some 1 /\
    In (0%nat, (1, 7), 1) (commits s) /\
    forall m, m = 1 \/ m = 2 \/ m = 4 -> can_learn s m 0%nat 1 /\ nth_error (nlog s m) 0 = Some (1, 7).
Proof.
  intros Q.
  assert (QM : forall f, f 1 = true -> f 2 = true -> f 4 = true -> majority vs vo f).
  { intros f F1 F2 F4. eapply majority_mono; [|exact Q]. intros x X.
    rewrite !orb_true_iff, !N.eqb_eq in X. destruct X as [[->| ->]| ->]; assumption. }
  assert (R : sreach vs vo s0) by (apply sreach_init; repeat split; intros; reflexivity).
  (* R follows the run.  Every state is given a name, since the next one mentions it eight times. *)
  (* node 1 campaigns in term 1 and votes for itself; nodes 2 and 4 vote for it *)
  eapply sreach_step in R; [|apply (SCampaign vs vo _ 1 1); dec].
  set (s1 := mkS _ _ _ _ _ _ _ _) in R.
  eapply sreach_step in R; [|apply (SVote vs vo _ 1 1 1); [dec|dec|dec|dec|intros r []|right; split; dec]].
  set (s2 := mkS _ _ _ _ _ _ _ _) in R.
  eapply sreach_step in R; [|apply (SVote vs vo _ 2 1 1); [dec|dec|dec|dec| |right; split; dec]].
  2: { intros r [<-|[]] _ _. reflexivity. }
  set (s3 := mkS _ _ _ _ _ _ _ _) in R.
  eapply sreach_step in R; [|apply (SVote vs vo _ 4 1 1); [dec|dec|dec|dec| |right; split; dec]].
  2: { intros r [<-|[<-|[]]] _ _; reflexivity. }
  set (s4 := mkS _ _ _ _ _ _ _ _) in R.
  (* it becomes leader of term 1 and appends payload 7 *)
  eapply sreach_step in R.
  2: { eapply (SBecomeLeader vs vo _ 1 1); [dec|dec|dec|apply QM; reflexivity|apply (BecomeLeader _ 1 1); dec|reflexivity]. }
  set (s5 := mkS _ _ _ _ _ _ _ _) in R.
  eapply sreach_step in R; [|eapply (SLeaderAppend vs vo _ 1 1 7); [dec|dec|dec|dec|reflexivity]].
  set (s6 := mkS _ _ _ _ _ _ _ _) in R.
  (* node 2 accepts the entry, crashes before acknowledging, loses the entry, and accepts it
     again after the restart; node 4 accepts it too *)
  eapply sreach_step in R; [|eapply (SFollowerAppend vs vo _ 2 1 0%nat 1%nat 0); [dec|dec|dec|dec|reflexivity]].
  set (s7 := mkS _ _ _ _ _ _ _ _) in R.
  eapply sreach_step in R; [|eapply (SLose vs vo _ 2 0%nat); [intros t k' []|reflexivity]].
  set (s8 := mkS _ _ _ _ _ _ _ _) in R.
  eapply sreach_step in R; [|eapply (SFollowerAppend vs vo _ 2 1 0%nat 1%nat 0); [dec|dec|dec|dec|reflexivity]].
  set (s9 := mkS _ _ _ _ _ _ _ _) in R.
  eapply sreach_step in R; [|eapply (SFollowerAppend vs vo _ 4 1 0%nat 1%nat 0); [dec|dec|dec|dec|reflexivity]].
  set (s10 := mkS _ _ _ _ _ _ _ _) in R.
  (* all three acknowledge; the leadership commits position 0 *)
  eapply sreach_step in R; [|apply (SAck vs vo _ 1 1 1%nat); dec].
  set (s11 := mkS _ _ _ _ _ _ _ _) in R.
  eapply sreach_step in R; [|apply (SAck vs vo _ 2 1 1%nat); dec].
  set (s12 := mkS _ _ _ _ _ _ _ _) in R.
  eapply sreach_step in R; [|apply (SAck vs vo _ 4 1 1%nat); dec].
  set (s13 := mkS _ _ _ _ _ _ _ _) in R.
  eapply sreach_step in R; [|apply (SCommit vs vo _ 1 0%nat (1, 7)); [dec|dec|dec|apply QM; reflexivity]].
  set (s14 := mkS _ _ _ _ _ _ _ _) in R.
  exists s14. repeat split; try exact R; try reflexivity; [left; reflexivity| |].
  - exists 0%nat, (1, 7). destruct H as [->|[->| ->]]; repeat split; dec; left; reflexivity.
  - destruct H as [->|[->| ->]]; reflexivity.
Qed.

Lemma learned_twice vs vo a b :
  majority vs vo (fun q => N.eqb q 1 || N.eqb q 2 || N.eqb q 4) ->
  a = 1 \/ a = 2 \/ a = 4 -> b = 1 \/ b = 2 \/ b = 4 ->
  exists p, areach vs vo p /\ In (a, 0%nat, (1, 7)) (snd p) /\ In (b, 0%nat, (1, 7)) (snd p).
Proof.
  intros Q Ha Hb. destruct (committed_run vs vo Q) as (s & R & _ & _ & _ & _ & CL).
  destruct (CL a Ha) as [CA NA]. destruct (CL b Hb) as [CB NB].
  assert (R1 := areach_step vs vo _ _ (sreach_areach vs vo s R) (AApply vs vo s [] a 0%nat 1 (1, 7) CA NA)).
  assert (R2 := areach_step vs vo _ _ R1 (AApply vs vo s _ b 0%nat 1 (1, 7) CB NB)).
  eexists. split; [exact R2|]. cbn. auto.
Qed.

Example safety_nonvacuous :
  exists p, areach vs3 [] p /\ In (1, 0%nat, (1, 7)) (snd p) /\ In (2, 0%nat, (1, 7)) (snd p).
Proof. apply learned_twice; [reflexivity|left; reflexivity|right; left; reflexivity]. Qed.

Print Assumptions safety_nonvacuous.
