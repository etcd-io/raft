(* Safety.v (protocol level): Leader Completeness and State Machine Safety for any network of
   nodes that obey the rules the node model implements, with static membership [vs]:
     Campaign      a node raises its term
     Vote          one vote per term, never in a lower term, only for a candidate of that
                   term whose log is at least as up to date (last term, then length)
     BecomeLeader  a candidate of term t with votes of term t from a majority of [vs], no
                   leadership of t yet; the leadership's log starts as the candidate's log
     LeaderAppend  the leader of t appends an entry of term t at the end of its log
     FollowerAppend  as in LogMatching.v, from a leadership s >= the follower's term
     Ack           a node in term s acknowledges that its log agrees with the leadership's log
                   of s up to length k
     Commit        the leadership of s commits position i if the entry there has term s and a
                   majority of [vs] acknowledged a length > i in term s
     Lose          a node crashes and restarts: it keeps its term and vote, loses any suffix of its
                   log beyond what it acknowledged, and is no longer a candidate
   Messages can be delayed, duplicated, reordered, lost (every step may use any slice of the
   append-only ghost logs at any time).  History variables: every vote records the candidate's
   and the voter's log at that moment.  Unbounded nodes, terms, lengths, steps. *)
From Coq Require Import List NArith Bool Lia Arith.
From RaftV Require Import ListFacts LogMatching.
From RaftV Require QuorumProofs.
Import ListNotations.

Section WithVoters.
Variable vs : list N.     (* the voters (static membership) *)
Variable vo : list N.     (* the outgoing voters when the static configuration is joint, [] otherwise *)

Record vrec := mkV {
  vr_voter : N; vr_term : N; vr_cand : N;
  vr_clog : list aent;      (* candidate's log when the vote was cast *)
  vr_vlog : list aent;      (* voter's log when the vote was cast *)
}.

Record sstate := mkS {
  sg : gstate;                          (* logs and leaderships, as in LogMatching *)
  tm : N -> N;                          (* current term of each node *)
  votes : list vrec;
  acks : list (N * N * nat);            (* (node, term, length) *)
  acc : N -> list N;                    (* leaderships a node accepted entries from, or led *)
  ldr : N -> option N;                  (* leader of each term *)
  commits : list (nat * aent * N);      (* (position, entry, term of the committing leadership) *)
  cnd : N -> bool;                      (* volatile: the node campaigns in its current term and has not crashed,
                                           stepped down or moved on since *)
}.

Definition lastT (l : list aent) : N := match rev l with [] => 0%N | e :: _ => fst e end.

Definition utd (lc lv : list aent) : Prop :=
  (lastT lv < lastT lc)%N \/ (lastT lc = lastT lv /\ (length lv <= length lc)%nat).

Definition voted_for (s : sstate) (t c v : N) : bool :=
  existsb (fun r => N.eqb (vr_voter r) v && N.eqb (vr_term r) t && N.eqb (vr_cand r) c) (votes s).

Definition acked (s : sstate) (t : N) (i : nat) (q : N) : bool :=
  existsb (fun a => match a with (n, t', k) => N.eqb n q && N.eqb t' t && Nat.ltb i k end) (acks s).

Definition maj1 (l : list N) (f : N -> bool) : Prop := (2 * length (filter f l) > length l)%nat.
Definition maj1b (l : list N) (f : N -> bool) : bool := Nat.ltb (length l) (2 * length (filter f l)).
(* a quorum: a strict majority of the voters and, in a joint configuration, of the outgoing voters
   too (stated as a boolean equation so that it stays one atom for the proofs below; majority_spec
   says what it means) *)
Definition majority (f : N -> bool) : Prop :=
  maj1b vs f && (match vo with [] => true | _ => maj1b vo f end) = true.

Lemma maj1b_spec l f : maj1b l f = true <-> maj1 l f.
Proof. unfold maj1b, maj1. rewrite Nat.ltb_lt. lia. Qed.

Lemma majority_spec f : majority f <-> maj1 vs f /\ (vo = [] \/ maj1 vo f).
Proof.
  unfold majority. rewrite andb_true_iff, maj1b_spec. split; intros [A B]; (split; [exact A|]).
  - destruct vo; [left; reflexivity|right; apply maj1b_spec; exact B].
  - destruct vo; [reflexivity|]. destruct B as [B|B]; [discriminate|apply maj1b_spec; exact B].
Qed.

Definition updN {A} (f : N -> A) (k : N) (v : A) : N -> A := fun k' => if N.eqb k' k then v else f k'.

Definition L (s : sstate) (t : N) : list aent := logs (sg s) (KLead t).
Definition nlog (s : sstate) (n : N) : list aent := logs (sg s) (KNode n).

Inductive sstep : sstate -> sstate -> Prop :=
| SCampaign s c t :
    (tm s c < t)%N ->
    sstep s (mkS (sg s) (updN (tm s) c t) (votes s) (acks s) (acc s) (ldr s) (commits s) (updN (cnd s) c true))
| SVote s v t c :
    (tm s v <= t)%N -> tm s c = t -> cnd s c = true -> active (sg s) t = false ->
    (forall r, In r (votes s) -> vr_voter r = v -> vr_term r = t -> vr_cand r = c) ->
    utd (nlog s c) (nlog s v) ->
    sstep s (mkS (sg s) (updN (tm s) v t)
                 (mkV v t c (nlog s c) (nlog s v) :: votes s) (acks s) (acc s) (ldr s) (commits s) (cnd s))
| SBecomeLeader s c t g' :
    tm s c = t -> cnd s c = true -> active (sg s) t = false -> majority (voted_for s t c) ->
    gstep (sg s) g' ->
    g' = mkG (upd (logs (sg s)) (KLead t) (nlog s c)) (fun t' => if N.eqb t' t then true else active (sg s) t') ->
    sstep s (mkS g' (tm s) (votes s) (acks s) (updN (acc s) c (t :: acc s c)) (updN (ldr s) t (Some c)) (commits s) (cnd s))
| SLeaderAppend s c t x g' :
    tm s c = t -> ldr s t = Some c -> active (sg s) t = true -> nlog s c = L s t ->
    g' = mkG (upd (upd (logs (sg s)) (KLead t) (L s t ++ [(t, x)])) (KNode c) (L s t ++ [(t, x)])) (active (sg s)) ->
    sstep s (mkS g' (tm s) (votes s) (acks s) (acc s) (ldr s) (commits s) (cnd s))
| SFollowerAppend s m t prev cnt pt g' :
    (tm s m <= t)%N -> active (sg s) t = true ->
    prev_term (nlog s m) prev = Some pt -> prev_term (L s t) prev = Some pt ->
    g' = mkG (upd (logs (sg s)) (KNode m) (fappend (nlog s m) prev (firstn cnt (skipn prev (L s t))))) (active (sg s)) ->
    sstep s (mkS g' (updN (tm s) m t) (votes s) (acks s) (updN (acc s) m (t :: acc s m)) (ldr s) (commits s) (updN (cnd s) m false))
| SAck s m t k :
    tm s m = t -> active (sg s) t = true -> agree k (nlog s m) (L s t) -> (k <= length (nlog s m))%nat ->
    sstep s (mkS (sg s) (tm s) (votes s) ((m, t, k) :: acks s) (acc s) (ldr s) (commits s) (cnd s))
| SLose s m k g' :
    (forall t k', In (m, t, k') (acks s) -> (k' <= k)%nat) ->
    g' = mkG (upd (logs (sg s)) (KNode m) (firstn k (nlog s m))) (active (sg s)) ->
    sstep s (mkS g' (tm s) (votes s) (acks s) (acc s) (ldr s) (commits s) (updN (cnd s) m false))
| SCommit s t i e :
    active (sg s) t = true -> nth_error (L s t) i = Some e -> fst e = t ->
    majority (acked s t i) ->
    sstep s (mkS (sg s) (tm s) (votes s) (acks s) (acc s) (ldr s) ((i, e, t) :: commits s) (cnd s)).

Definition sinit (s : sstate) : Prop :=
  init (sg s) /\ (forall t, active (sg s) t = false) /\ votes s = [] /\ acks s = [] /\
  (forall n, acc s n = []) /\ (forall t, ldr s t = None) /\ commits s = [].

Inductive sreach : sstate -> Prop :=
| sreach_init s : sinit s -> sreach s
| sreach_step s s' : sreach s -> sstep s s' -> sreach s'.

Lemma sstep_gstep s s' : sstep s s' -> gstep (sg s) (sg s') \/ sg s' = sg s.
Proof.
  intros H.
  destruct H as [ | | s c t g' Hc Hcn Ha Hm Hg Eg | s c t x g' Hc Hl Ha Hn Eg
                | s m t prev cnt pt g' Hm Ha P1 P2 Eg | | s m k g' Hlk Eg | ]; cbn.
  - right; reflexivity.
  - right; reflexivity.
  - left. exact Hg.
  - left. subst g'. unfold L, nlog in *.
    pose proof (LeaderAppend (sg s) c t x Ha Hn) as G. cbn zeta in G. exact G.
  - left. subst g'. unfold L, nlog in *. eapply FollowerAppend; eassumption.
  - right; reflexivity.
  - left. subst g'. unfold nlog. apply LoseSuffix.
  - right; reflexivity.
Qed.

Lemma sreach_inv s : sreach s -> inv (sg s).
Proof.
  induction 1 as [s I|s s' R IH S].
  - apply inv_init. apply I.
  - destruct (sstep_gstep _ _ S) as [G|E]; [eapply inv_step; eassumption|rewrite E; exact IH].
Qed.



Definition mono (l : list aent) : Prop :=
  forall i j e1 e2, (i <= j)%nat -> nth_error l i = Some e1 -> nth_error l j = Some e2 -> (fst e1 <= fst e2)%N.
Definition bounded (b : N) (l : list aent) : Prop := forall e, In e l -> (fst e <= b)%N.
Definition below (b : N) (l : list aent) : Prop := forall e, In e l -> (fst e < b)%N.

Lemma mono_firstn l n : mono l -> mono (firstn n l).
Proof.
  intros M i j e1 e2 Lij H1 H2.
  assert (A : (i < n)%nat) by (apply nth_error_Some_lt in H1; rewrite firstn_length in H1; lia).
  assert (B : (j < n)%nat) by (apply nth_error_Some_lt in H2; rewrite firstn_length in H2; lia).
  rewrite (nth_error_firstn l n i A) in H1. rewrite (nth_error_firstn l n j B) in H2. exact (M i j e1 e2 Lij H1 H2).
Qed.

Lemma bounded_firstn b l n : bounded b l -> bounded b (firstn n l).
Proof. intros B e H. apply B. rewrite <- (firstn_skipn n l). apply in_or_app. left. exact H. Qed.

Lemma bounded_le b b' l : (b <= b')%N -> bounded b l -> bounded b' l.
Proof. intros Lb B e H. specialize (B e H). lia. Qed.

Lemma below_bounded b l : below b l -> bounded b l.
Proof. intros B e H. specialize (B e H). lia. Qed.

Lemma mono_app_last l t x : mono l -> bounded t l -> mono (l ++ [(t, x)]).
Proof.
  intros M B i j e1 e2 Lij H1 H2.
  destruct (Nat.lt_ge_cases j (length l)) as [Lj|Gj].
  - rewrite nth_error_app1 in H1, H2 by lia. exact (M i j e1 e2 Lij H1 H2).
  - rewrite nth_error_app2 in H2 by lia.
    destruct (j - length l)%nat eqn:D; cbn in H2; [|destruct n; discriminate]. inversion H2; subst; cbn.
    destruct (Nat.lt_ge_cases i (length l)) as [Li|Gi].
    + rewrite nth_error_app1 in H1 by lia. apply B. eapply nth_error_In. exact H1.
    + rewrite nth_error_app2 in H1 by lia.
      destruct (i - length l)%nat eqn:D2; cbn in H1; [|destruct n; discriminate]. inversion H1; subst; cbn. lia.
Qed.

Lemma bounded_app_last l t x : bounded t l -> bounded t (l ++ [(t, x)]).
Proof. intros B e H. apply in_app_or in H. destruct H as [H|[H|[]]]; [apply B; exact H|subst; cbn; lia]. Qed.

Lemma lastT_nth l : l <> [] -> exists e, nth_error l (length l - 1) = Some e /\ lastT l = fst e.
Proof.
  intros NE. unfold lastT. destruct (rev l) as [|e r] eqn:R.
  - exfalso. apply NE. rewrite <- (rev_involutive l), R. reflexivity.
  - exists e. split; [|reflexivity].
    assert (E : l = rev r ++ [e]) by (rewrite <- (rev_involutive l), R; reflexivity).
    rewrite E at 1. rewrite E, app_length. cbn. rewrite nth_error_app2 by lia.
    replace (length (rev r) + 1 - 1 - length (rev r))%nat with 0%nat by lia. reflexivity.
Qed.

Lemma mono_lastT l i e : mono l -> nth_error l i = Some e -> (fst e <= lastT l)%N.
Proof.
  intros M H. assert (NE : l <> []) by (intro X; subst; destruct i; discriminate).
  destruct (lastT_nth l NE) as [e' [H' E']]. rewrite E'.
  apply (M i (length l - 1)%nat e e'); [|exact H|exact H']. apply nth_error_Some_lt in H. lia.
Qed.



(* if the follower's log and the leader's log both agree with a third log up to S i, the
   follower rule keeps that agreement: where it truncates, the two differ *)
Lemma fappend_keeps (l ll : list aent) prev cnt ref i :
  agree (S i) l ref -> agree (S i) ll ref -> (S i <= length l)%nat ->
  agree (S i) (fappend l prev (firstn cnt (skipn prev ll))) ref.
Proof.
  intros A1 A2 LEN. unfold fappend.
  pose proof (first_conflict_char (firstn cnt (skipn prev ll)) (skipn prev l)) as FC.
  destruct (first_conflict (skipn prev l) (firstn cnt (skipn prev ll))) as [c|]; [|exact A1].
  destruct FC as (_ & _ & W). rewrite nth_error_skipn in W.
  assert (P : (i < prev + c)%nat).
  { destruct (Nat.lt_ge_cases i (prev + c)) as [Q|Q]; [exact Q|exfalso].
    assert (EQ : nth_error l (prev + c) = nth_error ll (prev + c)).
    { rewrite (agree_nth _ _ _ _ A1) by lia. rewrite (agree_nth _ _ _ _ A2) by lia. reflexivity. }
    destruct W as [W|(x & e & W1 & W2 & W3)]; [apply nth_error_None in W; lia|].
    rewrite W1, (slice_nth _ _ _ _ _ W2) in EQ. inversion EQ; subst. apply W3. reflexivity. }
  (* below that position the result is the old log *)
  eapply agree_trans; [apply agree_app_l; rewrite firstn_length; lia|].
  eapply agree_trans; [apply agree_firstn; lia|exact A1].
Qed.



Definition kbound (s : sstate) (k : key) : N := match k with KNode n => tm s n | KLead t => t end.

(* the log invariant of LogMatching for a frozen copy of a log *)
Definition linv (s : sstate) (l : list aent) : Prop :=
  forall i e, nth_error l i = Some e -> active (sg s) (fst e) = true /\ agree (S i) l (L s (fst e)).

Record SInv (s : sstate) : Prop := mkSInv {
  i1 : inv (sg s);
  i2 : forall k, mono (logs (sg s) k) /\ bounded (kbound s k) (logs (sg s) k);
  i3a : forall t c, ldr s t = Some c ->
        active (sg s) t = true /\ majority (voted_for s t c) /\ (t <= tm s c)%N;
  i3b : forall t, active (sg s) t = true -> exists c, ldr s t = Some c;
  i4 : forall r, In r (votes s) ->
       (vr_term r <= tm s (vr_voter r))%N /\ (vr_term r <= tm s (vr_cand r))%N;
  i5 : forall r1 r2, In r1 (votes s) -> In r2 (votes s) ->
       vr_voter r1 = vr_voter r2 -> vr_term r1 = vr_term r2 -> vr_cand r1 = vr_cand r2;
  i6 : forall r, In r (votes s) -> tm s (vr_cand r) = vr_term r -> active (sg s) (vr_term r) = false ->
       cnd s (vr_cand r) = true -> nlog s (vr_cand r) = vr_clog r;
  i7 : forall r, In r (votes s) -> ldr s (vr_term r) = Some (vr_cand r) ->
       agree (length (vr_clog r)) (vr_clog r) (L s (vr_term r)) /\
       (length (vr_clog r) <= length (L s (vr_term r)))%nat;
  i8 : forall r, In r (votes s) ->
       linv s (vr_clog r) /\ linv s (vr_vlog r) /\ mono (vr_clog r) /\ mono (vr_vlog r) /\
       below (vr_term r) (vr_clog r) /\ below (vr_term r) (vr_vlog r) /\ utd (vr_clog r) (vr_vlog r);
  i9 : forall m t k, In (m, t, k) (acks s) ->
       (t <= tm s m)%N /\ active (sg s) t = true /\ (k <= length (L s t))%nat;
  i10 : forall m t k i, In (m, t, k) (acks s) -> (i < k)%nat ->
        (forall s', In s' (acc s m) -> (t < s')%N -> agree (S i) (L s s') (L s t)) ->
        agree (S i) (nlog s m) (L s t);
  i11 : forall r m t k i, In r (votes s) -> In (m, t, k) (acks s) -> m = vr_voter r ->
        (t < vr_term r)%N -> (i < k)%nat ->
        (forall s', active (sg s) s' = true -> (t < s')%N -> (s' < vr_term r)%N -> agree (S i) (L s s') (L s t)) ->
        agree (S i) (vr_vlog r) (L s t);
  i12 : forall n s', In s' (acc s n) -> active (sg s) s' = true /\ (s' <= tm s n)%N;
  i13 : forall i e t, In (i, e, t) (commits s) ->
        active (sg s) t = true /\ nth_error (L s t) i = Some e /\ fst e = t /\ majority (acked s t i) /\
        forall s', active (sg s) s' = true -> (t < s')%N -> agree (S i) (L s s') (L s t);
}.

(* so that [refine (mkSInv _ ...)] takes the state from the goal, not from the first clause given *)
Arguments mkSInv s & _ _ _ _ _ _ _ _ _ _ _ _ _ _.

Lemma sinv_init s : sinit s -> SInv s.
Proof.
  destruct s as [g tm0 vt ak ac ld cm cn]. intros (I & A & V & K & C & Ld & Cm). cbn in * |-. subst vt ak cm.
  constructor; cbn.
  - apply inv_init. exact I.
  - intros k. rewrite I. split; [intros i j e1 e2 _ H; destruct i; discriminate|intros e []].
  - intros t c H. rewrite Ld in H. discriminate.
  - intros t H. rewrite A in H. discriminate.
  - intros r [].
  - intros r1 r2 [].
  - intros r [].
  - intros r [].
  - intros r [].
  - intros m t k [].
  - intros m t k i [].
  - intros r m t k i [].
  - intros n s' H. rewrite C in H. destruct H.
  - intros i e t [].
Qed.



Lemma updN_same {A} (f : N -> A) k v : updN f k v k = v.
Proof. unfold updN. rewrite N.eqb_refl. reflexivity. Qed.
Lemma updN_other {A} (f : N -> A) k v k' : k' <> k -> updN f k v k' = f k'.
Proof. unfold updN. intros H. destruct (N.eqb_spec k' k); [contradiction|reflexivity]. Qed.
Lemma updN_ge (f : N -> N) k v n : (f k <= v)%N -> (f n <= updN f k v n)%N.
Proof. unfold updN. intros H. destruct (N.eqb_spec n k); [subst; exact H|lia]. Qed.

Lemma maj1_mono l (f g : N -> bool) : (forall x, f x = true -> g x = true) -> maj1 l f -> maj1 l g.
Proof.
  unfold maj1. intros H M. pose proof (filter_length_le f g l (fun x _ => H x)). lia.
Qed.

Lemma majority_mono (f g : N -> bool) : (forall x, f x = true -> g x = true) -> majority f -> majority g.
Proof.
  rewrite !majority_spec. intros H [M1 M2]. split; [eapply maj1_mono; eassumption|].
  destruct M2 as [M2|M2]; [left; exact M2|right; eapply maj1_mono; eassumption].
Qed.

Lemma majority_meet (f g : N -> bool) : majority f -> majority g -> exists q, f q = true /\ g q = true.
Proof.
  rewrite !majority_spec. unfold maj1. intros [F _] [G _].
  destruct (QuorumProofs.majorities_intersect f g vs F G) as [q [_ [A B]]]. exists q. auto.
Qed.

Lemma upd_same f k v : upd f k v k = v.
Proof. unfold upd. destruct (key_eqb_spec k k); [reflexivity|contradiction]. Qed.
Lemma upd_other f k v k' : k' <> k -> upd f k v k' = f k'.
Proof. unfold upd. intros H. destruct (key_eqb_spec k' k); [contradiction|reflexivity]. Qed.

Lemma agree_grow_l i l x r : agree (S i) l r -> (S i <= length r)%nat -> agree (S i) (l ++ x) r.
Proof.
  intros A LEN. apply agree_sym. apply agree_app_r; [apply agree_sym; exact A|].
  apply agree_sym in A. apply (agree_len _ _ _ A). exact LEN.
Qed.



Lemma sstep_grows s s' : sstep s s' -> grows (sg s) (sg s').
Proof.
  intros H. destruct (sstep_gstep _ _ H) as [G|E]; [apply gstep_grows; exact G|].
  rewrite E. apply grows_same. auto.
Qed.

Lemma grows_agree s s' t k :
  grows (sg s) (sg s') -> active (sg s) t = true -> (k <= length (L s t))%nat -> agree k (L s' t) (L s t).
Proof.
  intros G A LK. destruct (G t A) as (_ & x & E & _). unfold L. rewrite E. apply agree_app_l. exact LK.
Qed.

Lemma grows_len s s' t k :
  grows (sg s) (sg s') -> active (sg s) t = true -> (k <= length (L s t))%nat -> (k <= length (L s' t))%nat.
Proof. intros G A LK. apply (agree_len k (L s t)); [apply agree_sym, grows_agree; assumption|exact LK]. Qed.

Lemma grows_nth s s' t j x :
  grows (sg s) (sg s') -> active (sg s) t = true -> nth_error (L s t) j = Some x -> nth_error (L s' t) j = Some x.
Proof.
  intros G A H. assert (LJ : (S j <= length (L s t))%nat) by (apply nth_error_Some_lt in H; lia).
  rewrite (agree_nth _ _ _ j (grows_agree s s' t _ G A LJ)) by lia. exact H.
Qed.

Lemma agree_fwd s s' t k a :
  grows (sg s) (sg s') -> active (sg s) t = true -> (k <= length (L s t))%nat ->
  agree k a (L s t) -> agree k a (L s' t).
Proof. intros G A LK H. eapply agree_trans; [exact H|apply agree_sym, grows_agree; assumption]. Qed.

(* whether two leadership logs agree through a position that the earlier one already holds is the
   same question before and after *)
Lemma agree_both s s' t0 t1 i :
  grows (sg s) (sg s') -> active (sg s) t0 = true -> active (sg s) t1 = true ->
  (S i <= length (L s t0))%nat -> agree (S i) (L s t1) (L s t0) -> agree (S i) (L s' t1) (L s' t0).
Proof.
  intros G A0 A1 LEN H. apply (agree_fwd s s'); [exact G|exact A0|exact LEN|].
  apply agree_sym, (agree_fwd s s'); [exact G|exact A1| |apply agree_sym; exact H].
  apply agree_sym in H. exact (agree_len _ _ _ H LEN).
Qed.

Lemma agree_back s s' t0 t1 i :
  SInv s -> grows (sg s) (sg s') -> active (sg s) t0 = true -> active (sg s) t1 = true -> (t0 < t1)%N ->
  (S i <= length (L s t0))%nat -> agree (S i) (L s' t1) (L s' t0) -> agree (S i) (L s t1) (L s t0).
Proof.
  intros I G A0 A1 LT LEN A.
  assert (A' : agree (S i) (L s' t1) (L s t0)) by (eapply agree_trans; [exact A|apply grows_agree; assumption]).
  destruct (G t1 A1) as (_ & x & E & X). fold (L s' t1) (L s t1) in E. rewrite E in A'.
  destruct (Nat.le_gt_cases (S i) (length (L s t1))) as [Q|Q].
  - eapply agree_trans; [apply agree_sym, agree_app_l; exact Q|exact A'].
  - (* otherwise the first new entry, of term t1, would stand in the log of the earlier leadership t0 *)
    exfalso. set (p := length (L s t1)) in *.
    assert (LL : (S i <= length (L s t1 ++ x))%nat) by (apply agree_sym in A'; exact (agree_len _ _ _ A' LEN)).
    destruct (nth_error (L s t1 ++ x) p) as [e|] eqn:N1; [|apply nth_error_None in N1; lia].
    assert (N0 : nth_error (L s t0) p = Some e) by (rewrite <- (agree_nth _ _ _ p A') by lia; exact N1).
    rewrite nth_error_app2, Nat.sub_diag in N1 by lia.
    apply nth_error_In in N0, N1. pose proof (proj2 (i2 s I (KLead t0)) e N0) as B. cbn in B.
    rewrite (X e N1) in B. lia.
Qed.



(* Every rule is a composition of a few elementary updates of the state; each of them keeps the
   invariant by itself. *)

Lemma raise_term s n t :
  SInv s -> (tm s n <= t)%N ->
  SInv (mkS (sg s) (updN (tm s) n t) (votes s) (acks s) (acc s) (ldr s) (commits s) (cnd s)).
Proof.
  intros I Ht. assert (GE : forall m, (tm s m <= updN (tm s) n t m)%N) by (intros m; apply updN_ge; exact Ht).
  refine (mkSInv _ (i1 s I) _ _ (i3b s I) _ (i5 s I) _ (i7 s I) (i8 s I) _ (i10 s I) (i11 s I) _ (i13 s I)); cbn.
  - intros k. destruct (i2 s I k) as [M B]. split; [exact M|].
    destruct k as [m|t']; [eapply bounded_le; [apply GE|exact B]|exact B].
  - intros t' c H. destruct (i3a s I _ _ H) as (A & M & T). specialize (GE c). repeat split; [exact A|exact M|lia].
  - intros r H. destruct (i4 s I r H) as [A B]. pose proof (GE (vr_voter r)). pose proof (GE (vr_cand r)). split; lia.
  - (* a candidate whose term this raises has no vote of the new term *)
    intros r H T A K. apply (i6 s I r H); [|exact A|exact K].
    unfold updN in T. destruct (N.eqb_spec (vr_cand r) n) as [E|NE]; [|exact T].
    destruct (i4 s I r H) as [_ B]. rewrite E in B |- *. lia.
  - intros m t' k H. destruct (i9 s I _ _ _ H) as (A & B & C). specialize (GE m). repeat split; [lia|exact B|exact C].
  - intros m s' H. destruct (i12 s I _ _ H) as [A B]. specialize (GE m). split; [exact A|lia].
Qed.

Lemma set_cnd s n b :
  SInv s -> (b = true -> forall r, In r (votes s) -> vr_cand r = n -> vr_term r <> tm s n) ->
  SInv (mkS (sg s) (tm s) (votes s) (acks s) (acc s) (ldr s) (commits s) (updN (cnd s) n b)).
Proof.
  intros I P.
  refine (mkSInv _ (i1 s I) (i2 s I) (i3a s I) (i3b s I) (i4 s I) (i5 s I) _ (i7 s I) (i8 s I) (i9 s I)
                 (i10 s I) (i11 s I) (i12 s I) (i13 s I)); cbn.
  intros r H T A K. apply (i6 s I r H T A). unfold updN in K.
  destruct (N.eqb_spec (vr_cand r) n) as [E|NE]; [|exact K].
  destruct b; [|discriminate]. rewrite E in T. symmetry in T. destruct (P eq_refl r H E T).
Qed.

Lemma add_acc s n t :
  SInv s -> active (sg s) t = true -> (t <= tm s n)%N ->
  SInv (mkS (sg s) (tm s) (votes s) (acks s) (updN (acc s) n (t :: acc s n)) (ldr s) (commits s) (cnd s)).
Proof.
  intros I A T.
  refine (mkSInv _ (i1 s I) (i2 s I) (i3a s I) (i3b s I) (i4 s I) (i5 s I) (i6 s I) (i7 s I) (i8 s I) (i9 s I)
                 _ (i11 s I) _ (i13 s I)); cbn.
  - intros m t' k i H LK P. apply (i10 s I m t' k i H LK). intros s' IN. apply P.
    unfold updN. destruct (N.eqb_spec m n) as [->|_]; [right|]; exact IN.
  - intros m s' H. unfold updN in H. destruct (N.eqb_spec m n) as [->|_]; [|exact (i12 s I _ _ H)].
    destruct H as [<-|H]; [split; assumption|exact (i12 s I _ _ H)].
Qed.

(* node m's log is replaced; the new log still holds what m acknowledged *)
Lemma set_nlog s m l' :
  SInv s -> cnd s m = false ->
  inv (mkG (upd (logs (sg s)) (KNode m) l') (active (sg s))) -> mono l' /\ bounded (tm s m) l' ->
  (forall t k i, In (m, t, k) (acks s) -> (i < k)%nat -> agree (S i) (nlog s m) (L s t) ->
     (forall s', In s' (acc s m) -> (t < s')%N -> agree (S i) (L s s') (L s t)) -> agree (S i) l' (L s t)) ->
  SInv (mkS (mkG (upd (logs (sg s)) (KNode m) l') (active (sg s)))
            (tm s) (votes s) (acks s) (acc s) (ldr s) (commits s) (cnd s)).
Proof.
  intros I C I1 MB K.
  refine (mkSInv _ I1 _ (i3a s I) (i3b s I) (i4 s I) (i5 s I) _ (i7 s I) (i8 s I) (i9 s I) _ (i11 s I)
                 (i12 s I) (i13 s I)); unfold nlog; cbn [sg logs kbound tm].
  - intros [n|t]; [|exact (i2 s I (KLead t))].
    destruct (N.eq_dec n m) as [->|NE]; [rewrite upd_same; exact MB|].
    rewrite upd_other by congruence. exact (i2 s I (KNode n)).
  - intros r H T A Kc. rewrite upd_other; [exact (i6 s I r H T A Kc)|].
    intros E. inversion E as [E']. cbn in Kc. congruence.
  - intros n t k i H LK P. pose proof (i10 s I n t k i H LK P) as OLD.
    destruct (N.eq_dec n m) as [->|NE]; [rewrite upd_same; exact (K t k i H LK OLD P)|].
    rewrite upd_other by congruence. exact OLD.
Qed.

Lemma voted_for_cons s r t c v :
  existsb (fun r => N.eqb (vr_voter r) v && N.eqb (vr_term r) t && N.eqb (vr_cand r) c) (votes s) = true ->
  existsb (fun r => N.eqb (vr_voter r) v && N.eqb (vr_term r) t && N.eqb (vr_cand r) c) (r :: votes s) = true.
Proof. intros H. cbn. rewrite H. apply orb_true_r. Qed.

Lemma add_vote s v t c :
  SInv s -> tm s v = t -> tm s c = t -> active (sg s) t = false ->
  (forall r, In r (votes s) -> vr_voter r = v -> vr_term r = t -> vr_cand r = c) ->
  utd (nlog s c) (nlog s v) ->
  SInv (mkS (sg s) (tm s) (mkV v t c (nlog s c) (nlog s v) :: votes s) (acks s) (acc s) (ldr s) (commits s) (cnd s)).
Proof.
  intros I Hv Hc Ha Hu Hutd.
  refine (mkSInv _ (i1 s I) (i2 s I) _ (i3b s I) _ _ _ _ _ (i9 s I) (i10 s I) _ (i12 s I) (i13 s I)); cbn.
  - intros t' c' H. destruct (i3a s I _ _ H) as (A & M & T). refine (conj A (conj _ T)).
    eapply majority_mono; [|exact M]. intros x. apply voted_for_cons.
  - intros r [<-|H]; [cbn; lia|exact (i4 s I r H)].
  - intros r1 r2 [<-|H1] [<-|H2] EV ET; cbn in *.
    + reflexivity.
    + symmetry. apply (Hu r2 H2); symmetry; assumption.
    + apply (Hu r1 H1); assumption.
    + exact (i5 s I _ _ H1 H2 EV ET).
  - intros r [<-|H]; [intros _ _ _; reflexivity|exact (i6 s I r H)].
  - intros r [<-|H] LD; [|exact (i7 s I r H LD)]. cbn in LD. destruct (i3a s I _ _ LD) as (A & _). congruence.
  - intros r [<-|H]; [|exact (i8 s I r H)]. cbn.
    (* no leadership of t yet, so the logs of nodes in term t hold lower terms only *)
    assert (BL : forall n, tm s n = t -> below t (nlog s n)).
    { intros n Tn e He. destruct (In_nth_error _ _ He) as [i Hi]. destruct (i1 s I _ _ _ Hi) as [A _].
      pose proof (proj2 (i2 s I (KNode n)) e He) as B. cbn in B. assert (fst e <> t) by congruence. lia. }
    exact (conj (i1 s I (KNode c)) (conj (i1 s I (KNode v)) (conj (proj1 (i2 s I (KNode c)))
          (conj (proj1 (i2 s I (KNode v))) (conj (BL c Hc) (conj (BL v Hv) Hutd)))))).
  - (* the voter's acknowledged prefix: what it accepted entries from lies below t *)
    intros r m t0 k i [<-|H] HA EM LT LK P; [|exact (i11 s I r m t0 k i H HA EM LT LK P)].
    cbn in *. subst m. apply (i10 s I v t0 k i HA LK). intros s' IN LT'.
    destruct (i12 s I _ _ IN) as [AC LE]. apply P; [exact AC|exact LT'|]. assert (s' <> t) by congruence. lia.
Qed.

Lemma pres_ack s m t k :
  SInv s -> tm s m = t -> active (sg s) t = true -> agree k (nlog s m) (L s t) -> (k <= length (nlog s m))%nat ->
  SInv (mkS (sg s) (tm s) (votes s) ((m, t, k) :: acks s) (acc s) (ldr s) (commits s) (cnd s)).
Proof.
  intros I Hm Ha Hag Hk.
  refine (mkSInv _ (i1 s I) (i2 s I) (i3a s I) (i3b s I) (i4 s I) (i5 s I) (i6 s I) (i7 s I) (i8 s I) _ _ _
                 (i12 s I) _); cbn.
  - intros m' t' k' [E|H]; [|exact (i9 s I _ _ _ H)]. inversion E; subst. repeat split; [lia|exact Ha|].
    apply (agree_len _ _ _ Hag). exact Hk.
  - intros m' t' k' i [E|H] LK P; [|exact (i10 s I _ _ _ _ H LK P)]. inversion E; subst.
    eapply agree_le; [|exact Hag]. lia.
  - intros r m' t' k' i H [E|HA] EM LT LK P; [|exact (i11 s I r m' t' k' i H HA EM LT LK P)].
    inversion E; subst. exfalso. destruct (i4 s I r H) as [A _]. lia.
  - intros i e t' H. destruct (i13 s I _ _ _ H) as (A & B & C & M & D). repeat split; auto.
    eapply majority_mono; [|exact M]. intros x X. unfold acked in *. cbn [existsb acks]. apply orb_true_iff. right. exact X.
Qed.


(* the heart of Leader Completeness: a frozen log satisfying the log invariant, whose last term
   is at least the term t0 of a committed entry at position i (and which is long enough when
   that term is exactly t0), contains the committed prefix *)
Lemma frozen_log_has s l t0 i e :
  SInv s -> linv s l -> l <> [] ->
  nth_error (L s t0) i = Some e -> fst e = t0 ->
  (t0 <= lastT l)%N ->
  (lastT l = t0 -> (S i <= length l)%nat) ->
  (active (sg s) (lastT l) = true -> (t0 < lastT l)%N -> agree (S i) (L s (lastT l)) (L s t0)) ->
  agree (S i) l (L s t0).
Proof.
  intros I LI NE HN FE LE LEN D.
  destruct (lastT_nth l NE) as [e' [H' E']].
  destruct (LI _ _ H') as [AC AG].
  assert (LP : (0 < length l)%nat) by (destruct l; [contradiction|cbn; lia]).
  replace (S (length l - 1)) with (length l) in AG by lia.
  rewrite <- E' in *.
  destruct (N.eq_dec (lastT l) t0) as [EQ|NEQ].
  - rewrite EQ in AG. eapply agree_le; [|exact AG]. apply LEN. exact EQ.
  - assert (LT : (t0 < lastT l)%N) by lia.
    pose proof (D AC LT) as D'.
    assert (SL : (S i <= length l)%nat).
    { destruct (Nat.le_gt_cases (S i) (length l)) as [Q|Q]; [exact Q|exfalso].
      assert (N1 : nth_error (L s (lastT l)) (length l - 1) = Some e').
      { rewrite <- (agree_nth _ _ _ (length l - 1)%nat AG) by lia. exact H'. }
      assert (N2 : nth_error (L s (lastT l)) i = Some e).
      { rewrite (agree_nth _ _ _ i D') by lia. exact HN. }
      pose proof (proj1 (i2 s I (KLead (lastT l))) (length l - 1)%nat i e' e ltac:(lia) N1 N2) as MM.
      rewrite <- E' in MM. lia. }
    eapply agree_trans; [|exact D']. eapply agree_le; [|exact AG]. exact SL.
Qed.

Lemma below_lastT b l : l <> [] -> below b l -> (lastT l < b)%N.
Proof.
  intros NE B. destruct (lastT_nth l NE) as [e [H E]]. rewrite E. apply B. eapply nth_error_In. exact H.
Qed.

(* a vote of term [vr_term r] by a node that acknowledged position i of leadership t0 < that
   term: if every leadership strictly between carries the entry, so does the candidate's log *)
Lemma vote_carries s r q t0 k i e :
  SInv s -> In r (votes s) -> In (q, t0, k) (acks s) -> q = vr_voter r -> (i < k)%nat ->
  (t0 < vr_term r)%N -> nth_error (L s t0) i = Some e -> fst e = t0 ->
  (forall s', active (sg s) s' = true -> (t0 < s')%N -> (s' < vr_term r)%N -> agree (S i) (L s s') (L s t0)) ->
  agree (S i) (vr_clog r) (L s t0).
Proof.
  intros I INR INA EQ LK LT HN FE D.
  assert (VL : agree (S i) (vr_vlog r) (L s t0)) by exact (i11 s I r q t0 k i INR INA EQ LT LK D).
  destruct (i8 s I r INR) as (LC & LV & MC & MV & BC & BV & U).
  assert (NV : nth_error (vr_vlog r) i = Some e) by (rewrite (agree_nth _ _ _ i VL) by lia; exact HN).
  assert (T0 : (t0 <= lastT (vr_vlog r))%N) by (rewrite <- FE; eapply mono_lastT; eassumption).
  assert (LV' : (S i <= length (vr_vlog r))%nat) by (apply nth_error_Some_lt in NV; lia).
  assert (NE : vr_clog r <> []).
  { destruct U as [U|[U1 U2]]; intro X; rewrite X in *; [cbn in U; lia|cbn in U2; lia]. }
  pose proof (below_lastT _ _ NE BC) as BL.
  apply (frozen_log_has s (vr_clog r) t0 i e I LC NE HN FE).
  - destruct U as [U|[U1 U2]]; lia.
  - intro X. destruct U as [U|[U1 U2]]; lia.
  - intros AS L1. exact (D _ AS L1 BL).
Qed.

Lemma voted_for_In s t c v : voted_for s t c v = true ->
  exists r, In r (votes s) /\ vr_voter r = v /\ vr_term r = t /\ vr_cand r = c.
Proof.
  unfold voted_for. intros H. apply existsb_exists in H. destruct H as [r [IN H]].
  rewrite !andb_true_iff, !N.eqb_eq in H. exists r. tauto.
Qed.

Lemma acked_In s t i q : acked s t i q = true -> exists k, In (q, t, k) (acks s) /\ (i < k)%nat.
Proof.
  unfold acked. intros H. apply existsb_exists in H. destruct H as [[[n t'] k] [IN H]].
  rewrite !andb_true_iff, !N.eqb_eq, Nat.ltb_lt in H. destruct H as [[-> ->] LK]. exists k. auto.
Qed.

Lemma acked_voted_meet s t0 i t c :
  majority (acked s t0 i) -> majority (voted_for s t c) ->
  exists q k r, In (q, t0, k) (acks s) /\ (i < k)%nat /\ In r (votes s) /\ vr_voter r = q /\ vr_term r = t /\ vr_cand r = c.
Proof.
  intros MA Hm. destruct (majority_meet _ _ MA Hm) as [q [QA QV]].
  destruct (acked_In _ _ _ _ QA) as (k & INA & LK). destruct (voted_for_In _ _ _ _ QV) as (r & INR & E).
  exists q, k, r. tauto.
Qed.

Lemma cand_has_committed s c t i e t0 :
  SInv s -> tm s c = t -> cnd s c = true -> active (sg s) t = false -> majority (voted_for s t c) ->
  In (i, e, t0) (commits s) -> (t0 < t)%N -> agree (S i) (nlog s c) (L s t0).
Proof.
  intros I Hc Hcn Ha Hm HC LT.
  destruct (i13 s I _ _ _ HC) as (A0 & HN & FE & MA & D).
  destruct (acked_voted_meet s t0 i t c MA Hm) as (q & k & r & INA & LK & INR & E4 & E5 & E3).
  assert (CL : nlog s c = vr_clog r).
  { rewrite <- E3. apply (i6 s I r INR); [rewrite E3, E5; exact Hc|rewrite E5; exact Ha|rewrite E3; exact Hcn]. }
  rewrite CL.
  apply (vote_carries s r q t0 k i e I INR INA (eq_sym E4) LK); try assumption; [rewrite E5; exact LT|].
  intros s' AS L1 _. exact (D s' AS L1).
Qed.

(* The two rules that touch leadership logs have this in common: the logs change by a step of
   LogMatching, the leaders may change, every other field stays.  What the invariant says of votes,
   acknowledgements and commits survives because leadership logs only grow; the hypotheses are what
   each rule has to add. *)
Lemma logs_update s g' ld' :
  SInv s -> gstep (sg s) g' ->
  let s' := mkS g' (tm s) (votes s) (acks s) (acc s) ld' (commits s) (cnd s) in
  (* logs stay sorted by term and below their bounds *)
  (forall k, mono (logs g' k) /\ bounded (kbound s k) (logs g' k)) ->
  (* leaders and leaderships still correspond *)
  (forall t c, ld' t = Some c -> active g' t = true /\ majority (voted_for s t c) /\ (t <= tm s c)%N) ->
  (forall t, active g' t = true -> exists c, ld' t = Some c) ->
  (* a campaigning node whose term has no leadership keeps its log *)
  (forall n, cnd s n = true -> active g' (tm s n) = false -> logs g' (KNode n) = nlog s n) ->
  (* a new leader's leadership log is the log that the votes for it recorded *)
  (forall r, In r (votes s) -> ld' (vr_term r) = Some (vr_cand r) ->
     ldr s (vr_term r) = Some (vr_cand r) \/ logs g' (KLead (vr_term r)) = vr_clog r) ->
  (* a node still holds what it acknowledged *)
  (forall m t k i, In (m, t, k) (acks s) -> (i < k)%nat -> agree (S i) (nlog s m) (L s t) ->
     agree (S i) (logs g' (KNode m)) (L s t)) ->
  (* a new leadership holds what was committed *)
  (forall i e t t1, In (i, e, t) (commits s) -> active (sg s) t1 = false -> active g' t1 = true -> (t < t1)%N ->
     agree (S i) (logs g' (KLead t1)) (L s t)) ->
  SInv s'.
Proof.
  intros I GS s' LOGS LEAD LED CAND NEWLDR KEEP NEWTERM.
  assert (G : grows (sg s) (sg s')) by exact (gstep_grows _ _ GS).
  refine (mkSInv s' (inv_step _ _ (i1 s I) GS) LOGS LEAD LED (i4 s I) (i5 s I) _ _ _ _ _ _ _ _).
  - intros r H T A K. cbn in T, K.
    assert (A0 : active (sg s) (vr_term r) = false).
    { destruct (active (sg s) (vr_term r)) eqn:X; [|reflexivity]. rewrite (proj1 (G _ X)) in A. discriminate. }
    rewrite <- T in A. exact (eq_trans (CAND _ K A) (i6 s I r H T A0 K)).
  - intros r H LD. destruct (NEWLDR r H LD) as [OLD|NEW].
    + destruct (i7 s I r H OLD) as [A B]. destruct (i3a s I _ _ OLD) as (AC & _).
      split; [apply (agree_fwd s s'); assumption|apply (grows_len s s'); assumption].
    + unfold L, s'. cbn [sg]. rewrite NEW. split; [apply agree_refl|lia].
  - intros r H. destruct (i8 s I r H) as (A & B & C).
    exact (conj (vouched_grows _ _ _ G A) (conj (vouched_grows _ _ _ G B) C)).
  - intros m t k H. destruct (i9 s I _ _ _ H) as (A & B & C).
    exact (conj A (conj (proj1 (G t B)) (grows_len s s' t k G B C))).
  - intros m t0 k i H LK P. destruct (i9 s I _ _ _ H) as (TT & AT & KL).
    apply (agree_fwd s s'); [exact G|exact AT|lia|].
    apply (KEEP m t0 k i H LK), (i10 s I m t0 k i H LK). intros s1 IN LT0. destruct (i12 s I _ _ IN) as [AS _].
    apply (agree_back s s'); try assumption; [lia|exact (P s1 IN LT0)].
  - intros r m t0 k i H HA EM LT0 LK P. destruct (i9 s I _ _ _ HA) as (TT & AT & KL).
    apply (agree_fwd s s'); [exact G|exact AT|lia|].
    apply (i11 s I r m t0 k i H HA EM LT0 LK). intros s1 AS L1 L2.
    apply (agree_back s s'); try assumption; [lia|exact (P s1 (proj1 (G s1 AS)) L1 L2)].
  - intros n s1 H. destruct (i12 s I _ _ H) as [A B]. exact (conj (proj1 (G s1 A)) B).
  - intros i e t0 H. destruct (i13 s I _ _ _ H) as (A & B & C & M & D).
    refine (conj (proj1 (G t0 A)) (conj (grows_nth s s' _ _ _ G A B) (conj C (conj M _)))).
    intros s1 AS LT0. apply nth_error_Some_lt in B. destruct (active (sg s) s1) eqn:AS0.
    + exact (agree_both s s' t0 s1 i G A AS0 B (D s1 AS0 LT0)).
    + apply (agree_fwd s s'); [exact G|exact A|lia|]. exact (NEWTERM i e t0 s1 H AS0 AS LT0).
Qed.

Lemma pres_leader_append s c t x :
  SInv s ->
  tm s c = t -> active (sg s) t = true -> nlog s c = L s t ->
  SInv (mkS (mkG (upd (upd (logs (sg s)) (KLead t) (L s t ++ [(t, x)])) (KNode c) (L s t ++ [(t, x)])) (active (sg s)))
            (tm s) (votes s) (acks s) (acc s) (ldr s) (commits s) (cnd s)).
Proof.
  intros I Hc Ha Hn. set (l := L s t ++ [(t, x)]).
  destruct (i2 s I (KLead t)) as [M2 B2].
  assert (ML : mono l /\ bounded t l) by (split; [apply mono_app_last; assumption|apply bounded_app_last; exact B2]).
  refine (logs_update s _ (ldr s) I (LeaderAppend (sg s) c t x Ha Hn) _ (i3a s I) (i3b s I) _ _ _ _); cbn [logs active].
  - intros [n|t'].
    + destruct (N.eq_dec n c) as [->|NE]; [rewrite upd_same; cbn; rewrite Hc; exact ML|].
      rewrite upd_other by congruence. exact (i2 s I (KNode n)).
    + rewrite upd_other by discriminate. destruct (N.eq_dec t' t) as [->|NE]; [rewrite upd_same; exact ML|].
      rewrite upd_other by congruence. exact (i2 s I (KLead t')).
  - intros n _ A. rewrite upd_other; [reflexivity|]. intros E. injection E as ->. congruence.
  - intros r _ LD. left. exact LD.
  - intros m t0 k i H LK OLD. destruct (N.eq_dec m c) as [->|NE]; [|rewrite upd_other by congruence; exact OLD].
    rewrite upd_same. destruct (i9 s I _ _ _ H) as (_ & _ & KL). apply agree_grow_l; [fold (L s t); rewrite <- Hn; exact OLD|lia].
  - intros i e t0 t1 _ A0 A1. congruence.
Qed.

Lemma new_leadership s c t :
  SInv s ->
  tm s c = t -> cnd s c = true -> active (sg s) t = false -> majority (voted_for s t c) ->
  SInv (mkS (mkG (upd (logs (sg s)) (KLead t) (nlog s c)) (fun t' => if N.eqb t' t then true else active (sg s) t'))
            (tm s) (votes s) (acks s) (acc s) (updN (ldr s) t (Some c)) (commits s) (cnd s)).
Proof.
  intros I Hc Hcn Ha Hm.
  refine (logs_update s _ _ I (BecomeLeader (sg s) c t Ha) _ _ _ _ _ _ _); cbn [logs active]; unfold updN.
  - intros [n|t']; [exact (i2 s I (KNode n))|].
    destruct (N.eq_dec t' t) as [->|NE]; [rewrite upd_same, <- Hc; exact (i2 s I (KNode c))|].
    rewrite upd_other by congruence. exact (i2 s I (KLead t')).
  - intros t' c' H. destruct (N.eqb_spec t' t) as [->|NE]; [|exact (i3a s I _ _ H)].
    injection H as <-. refine (conj eq_refl (conj Hm _)). lia.
  - intros t' H. destruct (N.eqb_spec t' t) as [_|NE]; [exists c; reflexivity|exact (i3b s I _ H)].
  - reflexivity.
  - (* the votes for the new leader recorded the log it still has *)
    intros r H LD. destruct (N.eqb_spec (vr_term r) t) as [E|NE]; [right|left; exact LD].
    injection LD as EC. rewrite E, upd_same, EC. apply (i6 s I r H); congruence.
  - intros m t0 k i _ _ OLD. exact OLD.
  - intros i e t0 t1 H A0 A1 LT0. destruct (N.eqb_spec t1 t) as [->|NE]; [|congruence].
    rewrite upd_same. exact (cand_has_committed s c t i e t0 I Hc Hcn Ha Hm H LT0).
Qed.


(* committing: every later leadership carries the entry (induction over the later terms) *)
Lemma commit_carried s t i e :
  SInv s -> active (sg s) t = true -> nth_error (L s t) i = Some e -> fst e = t -> majority (acked s t i) ->
  forall s', active (sg s) s' = true -> (t < s')%N -> agree (S i) (L s s') (L s t).
Proof.
  intros I Ha HN FE MA.
  assert (STRONG : forall n s', (N.to_nat s' < n)%nat -> active (sg s) s' = true -> (t < s')%N -> agree (S i) (L s s') (L s t)).
  { induction n as [|n IH]; intros s' B AS LT; [lia|].
    destruct (i3b s I _ AS) as [c' LD].
    destruct (i3a s I _ _ LD) as (_ & MV & _).
    destruct (acked_voted_meet s t i s' c' MA MV) as (q & k & r & INA & LK & INR & E4 & E5 & E3).
    assert (CA : agree (S i) (vr_clog r) (L s t)).
    { apply (vote_carries s r q t k i e I INR INA (eq_sym E4) LK); try assumption; [rewrite E5; exact LT|].
      intros s'' AS' L1 L2. apply IH; [rewrite E5 in L2; lia|exact AS'|exact L1]. }
    assert (LD' : ldr s (vr_term r) = Some (vr_cand r)) by (rewrite E5, E3; exact LD).
    destruct (i7 s I r INR LD') as [A7 L7]. rewrite E5 in A7.
    assert (LEN : (S i <= length (vr_clog r))%nat).
    { apply agree_sym in CA. apply (agree_len _ _ _ CA). apply nth_error_Some_lt in HN. lia. }
    eapply agree_trans; [|exact CA]. apply agree_sym. eapply agree_le; [|exact A7]. exact LEN. }
  intros s' AS LT. apply (STRONG (S (N.to_nat s')) s'); [lia|exact AS|exact LT].
Qed.

Lemma pres_commit s t i e :
  SInv s -> active (sg s) t = true -> nth_error (L s t) i = Some e -> fst e = t -> majority (acked s t i) ->
  SInv (mkS (sg s) (tm s) (votes s) (acks s) (acc s) (ldr s) ((i, e, t) :: commits s) (cnd s)).
Proof.
  intros I Ha HN FE MA.
  refine (mkSInv _ (i1 s I) (i2 s I) (i3a s I) (i3b s I) (i4 s I) (i5 s I) (i6 s I) (i7 s I) (i8 s I) (i9 s I)
                 (i10 s I) (i11 s I) (i12 s I) _); cbn.
  intros i' e' t' [E|H]; [|exact (i13 s I _ _ _ H)]. inversion E; subst i' e' t'.
  exact (conj Ha (conj HN (conj FE (conj MA (commit_carried s t i e I Ha HN FE MA))))).
Qed.

Theorem sinv_step s s' : SInv s -> sstep s s' -> SInv s'.
Proof.
  intros I H.
  destruct H as [s c t Ht | s v t c Hv Hc Hcn Ha Hu Hutd | s c t g' Hc Hcn Ha Hm Hg Eg
                | s c t x g' Hc Hl Ha Hn Eg | s m t prev cnt pt g' Hm Ha P1 P2 Eg
                | s m t k Hm Ha Hag Hk | s m k g' Hlk Eg | s t i e Ha Hn He Hm].
  - refine (set_cnd _ c true (raise_term s c t I (N.lt_le_incl _ _ Ht)) _).
    intros _ r H E. cbn. rewrite updN_same. destruct (i4 s I r H) as [_ B]. rewrite E in B. lia.
  - refine (add_vote _ v t c (raise_term s v t I Hv) _ _ Ha Hu Hutd); cbn; [apply updN_same|].
    unfold updN. destruct (N.eqb c v); [reflexivity|exact Hc].
  - subst g'. refine (add_acc _ c t (new_leadership s c t I Hc Hcn Ha Hm) _ _); cbn; [|lia].
    rewrite N.eqb_refl. reflexivity.
  - subst g'. apply pres_leader_append; assumption.
  - subst g'.
    assert (T : (t <= updN (tm s) m t m)%N) by (rewrite updN_same; lia).
    refine (set_nlog _ m _ (set_cnd _ m false (add_acc _ m t (raise_term s m t I Hm) Ha T) ltac:(discriminate))
                     _ _ _ _); unfold L, nlog in *; cbn [sg tm votes acks acc ldr commits cnd].
    + apply updN_same.
    + eapply inv_step; [exact (i1 s I)|]. eapply FollowerAppend; eassumption.
    + rewrite updN_same.
      destruct (fappend_result (sg s) (KNode m) t prev cnt pt (i1 s I) P1 P2) as [E|[q E]]; cbn zeta in E; rewrite E.
      * destruct (i2 s I (KNode m)) as [M B]. exact (conj M (bounded_le _ _ _ Hm B)).
      * destruct (i2 s I (KLead t)) as [M B]. exact (conj (mono_firstn _ q M) (bounded_firstn _ _ q B)).
    + (* the leadership appended from is among those accepted from, so it agrees with what was acknowledged *)
      intros t' k i H LK OLD P. rewrite updN_same in P. destruct (i9 s I _ _ _ H) as (TT & AT & KL).
      apply (fappend_keeps _ _ prev cnt _ i OLD).
      * destruct (N.eq_dec t t') as [->|NT]; [apply agree_refl|]. apply (P t (or_introl eq_refl)). lia.
      * apply agree_sym in OLD. apply (agree_len _ _ _ OLD). unfold L in KL. lia.
  - apply pres_ack; assumption.
  - subst g'.
    refine (set_nlog _ m _ (set_cnd s m false I ltac:(discriminate)) _ _ _ _); cbn [sg tm votes acks acc ldr commits cnd].
    + apply updN_same.
    + eapply inv_step; [exact (i1 s I)|]. apply LoseSuffix.
    + destruct (i2 s I (KNode m)) as [M B]. exact (conj (mono_firstn _ k M) (bounded_firstn _ _ k B)).
    + intros t k' i H LK OLD _. specialize (Hlk _ _ H). eapply agree_trans; [apply agree_firstn; lia|exact OLD].
  - apply pres_commit; assumption.
Qed.

Theorem sreach_sinv s : sreach s -> SInv s.
Proof. induction 1 as [s I|s s' R IH S]; [apply sinv_init; exact I|eapply sinv_step; eassumption]. Qed.



(* position j holds the committed value x: some leadership t committed a position i >= j of its
   log (an entry of its own term, acknowledged by a majority), and x is what that log holds at j *)
Definition cval (s : sstate) (j : nat) (x : aent) : Prop :=
  exists i e t, In (i, e, t) (commits s) /\ (j <= i)%nat /\ nth_error (L s t) j = Some x.

(* what a node may treat as committed (and hand to the state machine): position j, on the
   authority of leadership t <= its term that committed some i >= j, when its own log agrees
   with that leadership's log through j *)
Definition can_learn (s : sstate) (m : N) (j : nat) (t : N) : Prop :=
  exists i e, In (i, e, t) (commits s) /\ (j <= i)%nat /\ (t <= tm s m)%N /\ agree (S j) (nlog s m) (L s t).

Theorem leader_completeness s i e t :
  SInv s -> In (i, e, t) (commits s) ->
  forall t' j x, active (sg s) t' = true -> (t < t')%N -> (j <= i)%nat ->
    nth_error (L s t) j = Some x -> nth_error (L s t') j = Some x.
Proof.
  intros I HC t' j x AS LT LE HN. destruct (i13 s I _ _ _ HC) as (_ & _ & _ & _ & D).
  rewrite (agree_nth _ _ _ j (D t' AS LT)) by lia. exact HN.
Qed.

Theorem cval_unique s j x y : SInv s -> cval s j x -> cval s j y -> x = y.
Proof.
  intros I (i1 & e1 & t1 & C1 & L1 & N1) (i2 & e2 & t2 & C2 & L2 & N2).
  destruct (i13 s I _ _ _ C1) as (A1 & _). destruct (i13 s I _ _ _ C2) as (A2 & _).
  destruct (N.lt_trichotomy t1 t2) as [LT|[EQ|LT]].
  - pose proof (leader_completeness s i1 e1 t1 I C1 t2 j x A2 LT L1 N1) as H. congruence.
  - subst t2. congruence.
  - pose proof (leader_completeness s i2 e2 t2 I C2 t1 j y A1 LT L2 N2) as H. congruence.
Qed.

Lemma can_learn_cval s m j t : SInv s -> can_learn s m j t ->
  exists x, nth_error (nlog s m) j = Some x /\ cval s j x.
Proof.
  intros I (i & e & HC & LE & LT & AG).
  destruct (i13 s I _ _ _ HC) as (_ & HN & _).
  assert (LJ : (j < length (L s t))%nat) by (apply nth_error_Some_lt in HN; lia).
  destruct (nth_error (L s t) j) as [x|] eqn:NJ; [|apply nth_error_None in NJ; lia].
  exists x. split; [rewrite (agree_nth _ _ _ j AG) by lia; exact NJ|]. exists i, e, t. auto.
Qed.

Lemma commits_stable s s' c : sstep s s' -> In c (commits s) -> In c (commits s').
Proof. intros H HC. destruct H; cbn [commits]; try exact HC. right. exact HC. Qed.

Lemma tm_stable s s' n : sstep s s' -> (tm s n <= tm s' n)%N.
Proof.
  intros H. destruct H; cbn [tm]; try lia; apply updN_ge; lia.
Qed.

Theorem cval_stable s s' j x : SInv s -> sstep s s' -> cval s j x -> cval s' j x.
Proof.
  intros I H (i & e & t & HC & LE & HN). destruct (i13 s I _ _ _ HC) as (AT & _).
  exists i, e, t. split; [eapply commits_stable; eassumption|]. split; [exact LE|].
  exact (grows_nth s s' t j x (sstep_grows s s' H) AT HN).
Qed.

(* a node never replaces what it may treat as committed: as long as it still holds position j
   (it may lose a not yet acknowledged suffix of its log in a crash), the committed value is there *)
Theorem can_learn_stable s s' m j t :
  SInv s -> sstep s s' -> can_learn s m j t -> (S j <= length (nlog s' m))%nat -> can_learn s' m j t.
Proof.
  intros I H (i & e & HC & LE & LT & AG) HOLD.
  pose proof (commits_stable s s' _ H HC) as HC'. pose proof (tm_stable s s' m H) as TM'.
  exists i, e. refine (conj HC' (conj LE (conj (N.le_trans _ _ _ LT TM') _))).
  destruct (i13 s I _ _ _ HC) as (AT & HN & FE & MA & D).
  assert (LJ : (S j <= length (L s t))%nat) by (apply nth_error_Some_lt in HN; lia).
  assert (LM : (S j <= length (nlog s m))%nat) by (apply agree_sym in AG; apply (agree_len _ _ _ AG); exact LJ).
  apply (agree_fwd s s'); [exact (sstep_grows s s' H)|exact AT|exact LJ|].
  clear HC' TM'.
  (* the node's log changes in three rules only *)
  destruct H as [ | | s c t1 g' Hc Hcn Ha Hm Hg Eg | s c t1 x1 g' Hc Hl Ha Hn Eg
                | s m1 t1 prev cnt pt g' Hm Ha P1 P2 Eg | | s m1 k g' Hlk Eg | ];
    try subst g'; unfold nlog in *; cbn [sg logs] in *; try exact AG.
  - destruct (N.eq_dec m c) as [->|NE]; [|rewrite upd_other by congruence; exact AG].
    rewrite upd_same. apply agree_grow_l; [rewrite <- Hn; exact AG|exact LJ].
  - destruct (N.eq_dec m m1) as [->|NE]; [|rewrite upd_other by congruence; exact AG].
    rewrite upd_same.
    assert (AT2 : agree (S j) (L s t1) (L s t)).
    { destruct (N.eq_dec t1 t) as [->|NT]; [apply agree_refl|].
      eapply agree_le; [|apply (D t1 Ha); lia]. lia. }
    exact (fappend_keeps _ _ prev cnt _ j AG AT2 LM).
  - destruct (N.eq_dec m m1) as [->|NE]; [|rewrite upd_other by congruence; exact AG].
    rewrite upd_same in *. rewrite firstn_length in HOLD.
    eapply agree_trans; [apply agree_firstn; lia|exact AG].
Qed.


Definition astate := (sstate * list (N * nat * aent))%type.   (* (node, position, value handed to the state machine) *)

Inductive astep : astate -> astate -> Prop :=
| AProto s s' ap : sstep s s' -> astep (s, ap) (s', ap)
| AApply s ap m j t x : can_learn s m j t -> nth_error (nlog s m) j = Some x -> astep (s, ap) (s, (m, j, x) :: ap).

Inductive areach : astate -> Prop :=
| areach_init s : sinit s -> areach (s, [])
| areach_step p p' : areach p -> astep p p' -> areach p'.

Lemma sreach_areach s : sreach s -> areach (s, []).
Proof.
  induction 1 as [s I|s s' R IH S]; [apply areach_init; exact I|].
  eapply areach_step; [exact IH|apply AProto; exact S].
Qed.

Definition AInv (p : astate) : Prop :=
  SInv (fst p) /\ forall m j x, In (m, j, x) (snd p) -> cval (fst p) j x.

Lemma areach_ainv p : areach p -> AInv p.
Proof.
  induction 1 as [s I|p p' R [IS IA] S].
  - split; [apply sinv_init; exact I|intros m j x []].
  - destruct S as [s s' ap S|s ap m j t x CL HN]; cbn [fst snd] in *.
    + split; [eapply sinv_step; eassumption|]. intros m j x H. eapply cval_stable; [exact IS|exact S|]. eapply IA. exact H.
    + split; [exact IS|]. intros m' j' x' [E|H]; [|eapply IA; exact H]. inversion E; subst m' j' x'.
      destruct (can_learn_cval s m j t IS CL) as [y [NY CV]]. rewrite HN in NY. inversion NY; subst y. exact CV.
Qed.

(* State Machine Safety, over whole executions: whatever any two nodes ever handed to their
   state machines at the same position, at any two moments of any execution, is the same entry *)
Theorem state_machine_safety p m1 m2 j x y :
  areach p -> In (m1, j, x) (snd p) -> In (m2, j, y) (snd p) -> x = y.
Proof.
  intros R H1 H2. destruct (areach_ainv p R) as [IS IA].
  eapply cval_unique; [exact IS|eapply IA; exact H1|eapply IA; exact H2].
Qed.

End WithVoters.
