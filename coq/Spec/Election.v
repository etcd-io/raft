(* Election.v (protocol level): Election Safety for any history of vote grants and
   leaderships that obeys the node-local rules proved on the node model:
     - a voter grants its real vote to at most one candidate per term (C07 / C02_one_vote_per_term),
     - a node leads term t only with grants of term t from a majority of each voter set of
       its configuration (C02_leader_needs_quorum, C12),
     - the configurations of any two nodes that lead the same term have a voter set in common
       on which both majorities are taken (static membership: the same configuration; with
       reconfiguration: adjacent configurations, section 6 / C10).
   No bound on nodes, terms or history length. *)
From Coq Require Import List NArith Bool Lia.
From RaftV Require Import ListFacts Base Quorum QuorumProofs.
Import ListNotations.
Open Scope N_scope.

Record grant := mkGrant { g_voter : N; g_term : N; g_cand : N }.

Definition granted (gs : list grant) (v t c : N) : bool :=
  existsb (fun g => N.eqb (g_voter g) v && N.eqb (g_term g) t && N.eqb (g_cand g) c) gs.

Definition votes_unique (gs : list grant) : Prop :=
  forall g1 g2, In g1 gs -> In g2 gs -> g_voter g1 = g_voter g2 -> g_term g1 = g_term g2 ->
                g_cand g1 = g_cand g2.

Definition has_majority (gs : list grant) (vs : list N) (t c : N) : Prop :=
  (2 * length (filter (fun v => granted gs v t c) vs) > length vs)%nat.

Lemma granted_In gs v t c : granted gs v t c = true -> In (mkGrant v t c) gs.
Proof.
  unfold granted. intros H. apply existsb_exists in H. destruct H as [g [Hin Hg]].
  rewrite !andb_true_iff, !N.eqb_eq in Hg. destruct Hg as [[V T] C].
  destruct g; cbn in *; subst. exact Hin.
Qed.

(* Election Safety: two candidates with majorities of the same voter set in the same term
   are the same candidate. *)
Theorem election_safety gs vs t c1 c2 :
  votes_unique gs -> has_majority gs vs t c1 -> has_majority gs vs t c2 -> c1 = c2.
Proof.
  intros U M1 M2. unfold has_majority in *.
  destruct (majorities_intersect (fun v => granted gs v t c1) (fun v => granted gs v t c2) vs M1 M2)
    as [v [_ [G1 G2]]].
  apply granted_In in G1. apply granted_In in G2.
  exact (U _ _ G1 G2 eq_refl eq_refl).
Qed.

(* joint configurations: a winner needs a majority of each non-empty half; two winners whose
   configurations share a non-empty half coincide *)
Definition wins (gs : list grant) (c0 c1 : list N) (t c : N) : Prop :=
  (c0 = [] \/ has_majority gs c0 t c) /\ (c1 = [] \/ has_majority gs c1 t c).

Theorem election_safety_joint gs a0 a1 b0 b1 t c1 c2 shared :
  votes_unique gs -> shared <> [] ->
  (shared = a0 \/ shared = a1) -> (shared = b0 \/ shared = b1) ->
  wins gs a0 a1 t c1 -> wins gs b0 b1 t c2 -> c1 = c2.
Proof.
  intros U NE SA SB [WA0 WA1] [WB0 WB1].
  assert (MA : has_majority gs shared t c1).
  { destruct SA as [-> | ->]; [destruct WA0|destruct WA1]; congruence. }
  assert (MB : has_majority gs shared t c2).
  { destruct SB as [-> | ->]; [destruct WB0|destruct WB1]; congruence. }
  eapply election_safety; eassumption.
Qed.

(* the decision function of the code (C12) implies [wins]: a VoteWon tally over recorded
   votes that all stem from grants *)
Theorem vote_won_wins gs c0 c1 votes t c :
  (forall v, alookup votes v = Some true -> granted gs v t c = true) ->
  joint_vote c0 c1 votes = VoteWon -> wins gs c0 c1 t c.
Proof.
  intros G W. destruct (joint_vote_spec c0 c1 votes) as [HW _]. apply HW in W. destruct W as [W0 W1].
  assert (L : forall vs, half_won vs votes -> vs = [] \/ has_majority gs vs t c).
  { intros vs [E|Y]; [left; exact E|right].
    (* every voter counted as a yes is a voter with a grant *)
    enough (LE : (count_yes vs votes <= length (filter (fun v => granted gs v t c) vs))%nat)
      by (unfold yes_majority in Y; unfold has_majority; lia).
    apply filter_length_le. intros v _ A. apply G.
    destruct (alookup votes v) as [[|]|]; [reflexivity|discriminate|discriminate]. }
  split; apply L; assumption.
Qed.
