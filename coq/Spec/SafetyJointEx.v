(* SafetyJointEx.v: the safety theorems also cover a (static) joint configuration: a concrete
   execution with incoming voters {1,2,3} and outgoing voters {1,4,5}, in which node 1 needs and gets
   the votes and the acknowledgements of a majority of BOTH sets (1 and 2 of the first, 1 and 4 of
   the second) before it leads and commits; the votes of {1,2} alone are not a quorum. *)
From Coq Require Import List NArith Bool Lia Arith.
From RaftV Require Import LogMatching Safety SafetyEx.
Import ListNotations.
Local Open Scope N_scope.

Definition vin : list N := [1; 2; 3].
Definition vout : list N := [1; 4; 5].

Example joint_needs_both_halves :
  ~ majority vin vout (fun q => N.eqb q 1 || N.eqb q 2) /\
  majority vin vout (fun q => N.eqb q 1 || N.eqb q 2 || N.eqb q 4).
Proof. split; [intros H; vm_compute in H; discriminate H|reflexivity]. Qed.

Example safety_joint_nonvacuous :
  exists p, areach vin vout p /\ In (1, 0%nat, (1, 7)) (snd p) /\ In (4, 0%nat, (1, 7)) (snd p).
Proof.
  apply learned_twice; [exact (proj2 joint_needs_both_halves)|left; reflexivity|right; right; reflexivity].
Qed.

Print Assumptions safety_joint_nonvacuous.
