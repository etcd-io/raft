(* LogMatching.v (protocol level): the Log Matching property for any network of nodes whose
   logs evolve by the replication rules that the node model implements:
     - at most one leadership per term (Spec/Election.v), a leader starts from its own log,
     - a leader only appends entries of its term at the end of its log (appendEntry),
     - a follower accepts a slice of the leader's log only if the entry before the slice
       matches by (index, term), keeps its own entries while they match by term, truncates at
       the first mismatch and appends the rest (maybeAppend / findConflict / truncateAndAppend),
     - a crash may lose a suffix of a log (the not yet persisted tail), never change it.
   Messages may be delayed, duplicated, reordered or lost: a follower step may use any
   slice of the (append-only) ghost log of any leadership.
   No bound on nodes, terms, log lengths or steps. *)
From Coq Require Import List NArith Bool Lia Arith.
From RaftV Require Import ListFacts.
Import ListNotations.

Definition aent := (N * N)%type.            (* (term, payload) ; the index is the position *)

Inductive key := KNode (n : N) | KLead (t : N).   (* a node's log / the ghost log of leadership t *)

Definition key_eqb (a b : key) : bool :=
  match a, b with
  | KNode x, KNode y => N.eqb x y
  | KLead x, KLead y => N.eqb x y
  | _, _ => false
  end.

Lemma key_eqb_spec a b : reflect (a = b) (key_eqb a b).
Proof.
  destruct a as [x|x], b as [y|y]; cbn; try (constructor; congruence);
    destruct (N.eqb_spec x y); constructor; congruence.
Qed.

Record gstate := mkG { logs : key -> list aent; active : N -> bool }.

Definition upd (f : key -> list aent) (k : key) (v : list aent) : key -> list aent :=
  fun k' => if key_eqb k' k then v else f k'.

Definition agree (k : nat) (a b : list aent) : Prop := firstn k a = firstn k b.


(* position in [ents] of the first entry that the follower does not already hold with the
   same term ([tail] is the follower's log after the matched prefix) *)
Fixpoint first_conflict (tail ents : list aent) {struct ents} : option nat :=
  match ents with
  | [] => None
  | e :: ents' =>
      match tail with
      | [] => Some 0%nat
      | x :: tail' =>
          if N.eqb (fst x) (fst e)
          then match first_conflict tail' ents' with Some c => Some (S c) | None => None end
          else Some 0%nat
      end
  end.

Definition fappend (log : list aent) (prev : nat) (ents : list aent) : list aent :=
  match first_conflict (skipn prev log) ents with
  | None => log
  | Some c => firstn (prev + c) log ++ skipn c ents
  end.

(* term of the entry before position [prev] (0 for the empty prefix) *)
Definition prev_term (l : list aent) (prev : nat) : option N :=
  match prev with
  | O => Some 0%N
  | S p => match nth_error l p with Some e => Some (fst e) | None => None end
  end.

Inductive gstep : gstate -> gstate -> Prop :=
| BecomeLeader g n t :
    active g t = false ->
    gstep g (mkG (upd (logs g) (KLead t) (logs g (KNode n)))
                 (fun t' => if N.eqb t' t then true else active g t'))
| LeaderAppend g n t x :
    active g t = true -> logs g (KNode n) = logs g (KLead t) ->
    let l := logs g (KLead t) ++ [(t, x)] in
    gstep g (mkG (upd (upd (logs g) (KLead t) l) (KNode n) l) (active g))
| FollowerAppend g m s prev cnt pt :
    active g s = true ->
    prev_term (logs g (KNode m)) prev = Some pt ->
    prev_term (logs g (KLead s)) prev = Some pt ->
    gstep g (mkG (upd (logs g) (KNode m)
                      (fappend (logs g (KNode m)) prev (firstn cnt (skipn prev (logs g (KLead s))))))
                 (active g))
| LoseSuffix g m k :
    gstep g (mkG (upd (logs g) (KNode m) (firstn k (logs g (KNode m)))) (active g)).


(* every entry of every log (node or ghost) belongs to an active leadership, and the log
   agrees with that leadership's ghost log up to and including the entry *)
Definition inv (g : gstate) : Prop :=
  forall k i e, nth_error (logs g k) i = Some e ->
    active g (fst e) = true /\ agree (S i) (logs g k) (logs g (KLead (fst e))).

Definition init (g : gstate) : Prop := forall k, logs g k = [].

Lemma inv_init g : init g -> inv g.
Proof. intros I k i e H. rewrite I in H. destruct i; discriminate. Qed.


Lemma agree_refl k a : agree k a a.
Proof. reflexivity. Qed.
Lemma agree_sym k a b : agree k a b -> agree k b a.
Proof. unfold agree. congruence. Qed.
Lemma agree_trans k a b c : agree k a b -> agree k b c -> agree k a c.
Proof. unfold agree. congruence. Qed.

Lemma agree_le k k' a b : (k' <= k)%nat -> agree k a b -> agree k' a b.
Proof.
  unfold agree. intros L H. replace k' with (Nat.min k' k) by lia.
  rewrite <- !firstn_firstn. rewrite H. reflexivity.
Qed.

Lemma agree_nth k a b i : agree k a b -> (i < k)%nat -> nth_error a i = nth_error b i.
Proof.
  unfold agree. intros H L.
  rewrite <- (nth_error_firstn a k i L), <- (nth_error_firstn b k i L), H. reflexivity.
Qed.

Lemma agree_len k a b : agree k a b -> (k <= length a)%nat -> (k <= length b)%nat.
Proof.
  unfold agree. intros H L. assert (E : length (firstn k a) = length (firstn k b)) by (rewrite H; reflexivity).
  rewrite !firstn_length in E. lia.
Qed.

Lemma agree_app_r k a b x : agree k a b -> (k <= length b)%nat -> agree k a (b ++ x).
Proof. unfold agree. intros H L. rewrite firstn_app. replace (k - length b)%nat with 0%nat by lia. cbn. rewrite app_nil_r. exact H. Qed.

Lemma agree_app_l k a x : (k <= length a)%nat -> agree k (a ++ x) a.
Proof. unfold agree. intros L. rewrite firstn_app. replace (k - length a)%nat with 0%nat by lia. cbn. rewrite app_nil_r. reflexivity. Qed.

Lemma agree_S k a b e :
  agree k a b -> nth_error a k = Some e -> nth_error b k = Some e -> agree (S k) a b.
Proof.
  unfold agree. revert a b. induction k as [|k IH]; intros a b H A B.
  - destruct a, b; cbn in *; try discriminate. congruence.
  - destruct a as [|x a], b as [|y b]; cbn in *; try discriminate.
    inversion H; subst. f_equal. apply IH; assumption.
Qed.

Lemma agree_firstn k j a : (k <= j)%nat -> agree k (firstn j a) a.
Proof. unfold agree. intros L. rewrite firstn_firstn. replace (Nat.min k j) with k by lia. reflexivity. Qed.


(* Log Matching between any two logs, node or ghost: the same term at the same position makes
   them equal through that position *)
Lemma same_term_agree g k1 k2 p e1 e2 :
  inv g -> nth_error (logs g k1) p = Some e1 -> nth_error (logs g k2) p = Some e2 -> fst e1 = fst e2 ->
  agree (S p) (logs g k1) (logs g k2).
Proof.
  intros I H1 H2 T. destruct (I _ _ _ H1) as [_ A1]. destruct (I _ _ _ H2) as [_ A2]. rewrite T in A1.
  exact (agree_trans _ _ _ _ A1 (agree_sym _ _ _ A2)).
Qed.

Lemma prev_match_agree g km s prev pt :
  inv g ->
  prev_term (logs g km) prev = Some pt -> prev_term (logs g (KLead s)) prev = Some pt ->
  agree prev (logs g km) (logs g (KLead s)).
Proof.
  intros I P1 P2. destruct prev as [|p]; [reflexivity|]. cbn in P1, P2.
  destruct (nth_error (logs g km) p) as [e1|] eqn:E1; [|discriminate].
  destruct (nth_error (logs g (KLead s)) p) as [e2|] eqn:E2; [|discriminate].
  apply (same_term_agree g _ _ p e1 e2 I E1 E2). congruence.
Qed.

Lemma slice_nth {A} (l : list A) prev cnt c e :
  nth_error (firstn cnt (skipn prev l)) c = Some e -> nth_error l (prev + c) = Some e.
Proof.
  intros E. assert (LC : (c < cnt)%nat) by (apply nth_error_Some_lt in E; rewrite firstn_length in E; lia).
  rewrite nth_error_firstn, nth_error_skipn in E by exact LC. exact E.
Qed.

Definition term_match (a b : list aent) (c : nat) : Prop :=
  exists x e, nth_error a c = Some x /\ nth_error b c = Some e /\ fst x = fst e.

Lemma first_conflict_char ents : forall tail,
  match first_conflict tail ents with
  | Some c => (forall c', (c' < c)%nat -> term_match tail ents c') /\ (c < length ents)%nat /\
              (nth_error tail c = None \/
               exists x e, nth_error tail c = Some x /\ nth_error ents c = Some e /\ fst x <> fst e)
  | None => forall c', (c' < length ents)%nat -> term_match tail ents c'
  end.
Proof.
  induction ents as [|e ents IH]; intros tail; cbn [first_conflict length].
  - intros c' H. lia.
  - destruct tail as [|x tail].
    + split; [intros c' H; lia|]. split; [lia|left; reflexivity].
    + destruct (N.eqb_spec (fst x) (fst e)) as [E|NE].
      * specialize (IH tail). destruct (first_conflict tail ents) as [c|].
        -- destruct IH as (A & B & C). split; [|split; [lia|exact C]].
           intros [|c'] H; [exists x, e; auto|apply A; lia].
        -- intros [|c'] H; [exists x, e; auto|apply IH; lia].
      * split; [intros c' H; lia|]. split; [lia|right; exists x, e; auto].
Qed.

(* the core of maybeAppend: walking the slice while terms match keeps the two logs equal *)
Lemma first_conflict_spec g km s :
  inv g ->
  forall cnt prev,
  agree prev (logs g km) (logs g (KLead s)) ->
  let ents := firstn cnt (skipn prev (logs g (KLead s))) in
  match first_conflict (skipn prev (logs g km)) ents with
  | None => agree (prev + length ents) (logs g km) (logs g (KLead s))
  | Some c => agree (prev + c) (logs g km) (logs g (KLead s))
  end.
Proof.
  intros I cnt prev A ents.
  (* only the last matching position counts: it makes the logs equal through it *)
  assert (M : forall c, term_match (skipn prev (logs g km)) ents c ->
                        agree (S (prev + c)) (logs g km) (logs g (KLead s))).
  { intros c (x & e & X & E & T). rewrite nth_error_skipn in X.
    exact (same_term_agree g _ _ _ x e I X (slice_nth _ _ _ _ _ E) T). }
  pose proof (first_conflict_char ents (skipn prev (logs g km))) as FC.
  destruct (first_conflict (skipn prev (logs g km)) ents) as [c|].
  - destruct FC as (B & _).
    destruct c as [|c]; [rewrite Nat.add_0_r; exact A|]. rewrite Nat.add_succ_r. apply M, B. lia.
  - destruct (length ents) as [|n]; [rewrite Nat.add_0_r; exact A|]. rewrite Nat.add_succ_r. apply M, FC. lia.
Qed.

Lemma fappend_result g km s prev cnt pt :
  inv g ->
  prev_term (logs g km) prev = Some pt -> prev_term (logs g (KLead s)) prev = Some pt ->
  let L := logs g (KLead s) in
  let l' := fappend (logs g km) prev (firstn cnt (skipn prev L)) in
  l' = logs g km \/ (exists q, l' = firstn q L).
Proof.
  intros I P1 P2 L l'. subst l'. unfold fappend.
  pose proof (prev_match_agree g km s prev pt I P1 P2) as A.
  pose proof (first_conflict_spec g km s I cnt prev A) as FC. cbn zeta in FC. fold L in FC |- *.
  destruct (first_conflict (skipn prev (logs g km)) (firstn cnt (skipn prev L))) as [c|]; [|left; reflexivity].
  right. exists ((prev + c) + (cnt - c))%nat.
  unfold agree in FC. rewrite FC, (firstn_add L (prev + c) (cnt - c)), skipn_firstn_comm, skipn_skipn.
  replace (c + prev)%nat with (prev + c)%nat by lia. reflexivity.
Qed.


(* what [inv] asks of one log; [inv g] is [forall k, vouched g (logs g k)] *)
Definition vouched (g : gstate) (l : list aent) : Prop :=
  forall i e, nth_error l i = Some e -> active g (fst e) = true /\ agree (S i) l (logs g (KLead (fst e))).

Lemma vouched_firstn g l q : vouched g l -> vouched g (firstn q l).
Proof.
  intros V i e H.
  assert (LI : (i < q)%nat).
  { apply nth_error_Some_lt in H. rewrite firstn_length in H. lia. }
  rewrite nth_error_firstn in H by exact LI.
  destruct (V _ _ H) as [A B]. split; [exact A|].
  eapply agree_trans; [apply agree_firstn; lia|exact B].
Qed.

Lemma vouched_snoc g l t x :
  vouched g l -> active g t = true -> logs g (KLead t) = l ++ [(t, x)] -> vouched g (l ++ [(t, x)]).
Proof.
  intros V A E i e H. destruct (Nat.lt_ge_cases i (length l)) as [LT|GE].
  - rewrite nth_error_app1 in H by exact LT. destruct (V _ _ H) as [A' B]. split; [exact A'|].
    eapply agree_trans; [apply agree_app_l; lia|exact B].
  - rewrite nth_error_app2 in H by exact GE. destruct (i - length l)%nat as [|d]; [|destruct d; discriminate].
    injection H as <-. cbn [fst]. rewrite E. split; [exact A|reflexivity].
Qed.

Definition grows (g g' : gstate) : Prop :=
  forall t, active g t = true ->
    active g' t = true /\ exists x, logs g' (KLead t) = logs g (KLead t) ++ x /\ forall e, In e x -> fst e = t.

Lemma grows_same g g' :
  (forall t, active g t = true -> active g' t = true /\ logs g' (KLead t) = logs g (KLead t)) -> grows g g'.
Proof.
  intros H t A. destruct (H t A) as [A' E]. split; [exact A'|].
  exists []. rewrite app_nil_r. split; [exact E|intros e []].
Qed.

Lemma gstep_grows g g' : gstep g g' -> grows g g'.
Proof.
  intros S. destruct S as [g n t NA|g n t x AC EQ l|g m s prev cnt pt AC P1 P2|g m k0].
  - apply grows_same. intros t' A. cbn [logs active]. unfold upd. cbn [key_eqb].
    destruct (N.eqb_spec t' t) as [->|_]; [congruence|]. auto.
  - intros t' A. split; [exact A|]. cbn [logs]. unfold upd. cbn [key_eqb].
    destruct (N.eqb_spec t' t) as [->|_].
    + exists [(t, x)]. split; [reflexivity|]. intros e [<-|[]]. reflexivity.
    + exists []. rewrite app_nil_r. split; [reflexivity|intros e []].
  - apply grows_same. intros t' A. split; [exact A|reflexivity].
  - apply grows_same. intros t' A. split; [exact A|reflexivity].
Qed.

Lemma vouched_grows g g' l : grows g g' -> vouched g l -> vouched g' l.
Proof.
  intros G V i e H. destruct (V _ _ H) as [A B]. destruct (G _ A) as (A' & x & E & _). split; [exact A'|].
  rewrite E. apply agree_app_r; [exact B|]. apply (agree_len _ _ _ B). apply nth_error_Some_lt in H. lia.
Qed.

(* every log after the step is a log from before, a prefix of one, or the leader's log with its
   new entry; the leaderships that vouched for the old entries still do *)
Theorem inv_step g g' : inv g -> gstep g g' -> inv g'.
Proof.
  intros I S.
  assert (OLD : forall k, vouched g' (logs g k)) by (intros k; exact (vouched_grows g g' _ (gstep_grows g g' S) (I k))).
  destruct S as [g n t NA|g n t x AC EQ l|g m s prev cnt pt AC P1 P2|g m k0];
    intros k; cbn [logs]; unfold upd.
  - destruct (key_eqb k (KLead t)); apply OLD.
  - assert (NEW : vouched (mkG (upd (upd (logs g) (KLead t) l) (KNode n) l) (active g)) l).
    { apply vouched_snoc; [apply OLD|exact AC|]. cbn [logs]. unfold upd. cbn [key_eqb]. rewrite N.eqb_refl. reflexivity. }
    destruct (key_eqb k (KNode n)); [exact NEW|]. destruct (key_eqb k (KLead t)); [exact NEW|apply OLD].
  - set (g' := mkG _ _) in *. destruct (key_eqb k (KNode m)); [|apply OLD].
    destruct (fappend_result g (KNode m) s prev cnt pt I P1 P2) as [E|[q E]]; cbn zeta in E; rewrite E.
    + apply OLD.
    + exact (vouched_firstn _ _ q (OLD _)).
  - destruct (key_eqb k (KNode m)); [exact (vouched_firstn _ _ k0 (OLD _))|apply OLD].
Qed.

Inductive reach : gstate -> Prop :=
| reach_init g : init g -> reach g
| reach_step g g' : reach g -> gstep g g' -> reach g'.

Theorem reach_inv g : reach g -> inv g.
Proof. induction 1; [apply inv_init; assumption|eapply inv_step; eassumption]. Qed.

(* Log Matching: if two logs hold entries with the same term at the same position, the logs
   are identical up to and including that position. *)
Theorem log_matching g a b i ea eb :
  reach g ->
  nth_error (logs g (KNode a)) i = Some ea -> nth_error (logs g (KNode b)) i = Some eb ->
  fst ea = fst eb ->
  firstn (S i) (logs g (KNode a)) = firstn (S i) (logs g (KNode b)).
Proof.
  intros R A B T. exact (same_term_agree g _ _ i ea eb (reach_inv g R) A B T).
Qed.
